(* MachineCor.v — what is proved about the reference semantics `parse` (tree well-formedness and
   tags C06, failure position C13, start position C16) carried over to the interpreter `iparse`
   and the generated code `gparse`, by InterpProof.iparse_refines, GenProof.gparse_iparse
   (gparse_interp where the names in the failure record matter) and GenProof.iparse_terminates. *)
From Coq Require Import List ZArith Lia.
Import ListNotations.
From PP Require Import Syntax Spec SpecSyn SpecWf SpecShift SpecTags Interp InterpProof Gen GenProof.

Definition one_modifier (g : grammar) : Prop :=
  forall n r, lookup g n = Some r -> r_silent r = true -> r_kind r = KNormal \/ r_kind r = KAtomic.

(* how a furthest-failure position moves when the input is the suffix at k: the sentinel -1
   stays -1, every real position is shifted by d *)
Definition pos_shifted (d : N) (p2 p : Z) : Prop :=
  (p2 = (-1)%Z /\ p = (-1)%Z) \/ ((0 <= p2)%Z /\ p = (p2 + Z.of_N d)%Z).

Lemma parse_wellformed : forall g input k f rule s' tree,
  k <= length input -> parse g f rule input k = Ok s' tree ->
  chain (PN g) (N.of_nat k) (s_pos s') tree /\ N.to_nat (s_pos s') <= length input.
Proof.
  intros g input k f rule s' tree Hk H.
  pose proof (parse_sound g input k f rule Hk) as S. rewrite H in S.
  destruct S as [[[_ [_ Hp]] _] [_ C]]. split; [exact C|exact Hp].
Qed.

Lemma parse_fail_position : forall g input k f rule t,
  k <= length input -> parse g f rule input k = Fail t ->
  t_pos t = (-1)%Z \/ (Z.of_nat k <= t_pos t <= Z.of_nat (length input))%Z.
Proof.
  intros g input k f rule t Hk H.
  pose proof (parse_sound g input k f rule Hk) as S. rewrite H in S. exact (proj1 S).
Qed.

Lemma parse_fail_names : forall g input k f rule t,
  k <= length input -> parse g f rule input k = Fail t ->
  Forall (fun n => exists r, lookup g n = Some r) (t_exp t) /\
  Forall (fun n => exists r, lookup g n = Some r) (t_unexp t).
Proof.
  intros g input k f rule t Hk H.
  pose proof (parse_sound g input k f rule Hk) as S. rewrite H in S. exact (proj2 S).
Qed.

Definition res_trk_nonneg (r : res) : Prop :=
  match r with
  | Ok s _ => t_pos (s_trk s) = (-1)%Z \/ (0 <= t_pos (s_trk s))%Z
  | Fail t => t_pos t = (-1)%Z \/ (0 <= t_pos t)%Z
  | _ => True
  end.

Lemma parse0_trk : forall g input f rule, res_trk_nonneg (parse g f rule input 0).
Proof.
  intros g input f rule.
  pose proof (parse_sound g input 0 f rule (Nat.le_0_l _)) as S.
  destruct (parse g f rule input 0) as [s ps|t| |]; cbn; try exact I.
  - destruct S as [[_ [[A|A] _]] _]; [left; exact A|right; lia].
  - destruct S as [[A|A] _]; [left; exact A|right; lia].
Qed.

Lemma shift_trk_pos d t : t_pos t = (-1)%Z \/ (0 <= t_pos t)%Z ->
  pos_shifted d (t_pos t) (t_pos (shift_trk d t)).
Proof.
  intros [A|A]; unfold shift_trk, pos_shifted.
  - rewrite A. cbn. left. split; [reflexivity|exact A].
  - destruct (t_pos t <? 0)%Z eqn:E; [apply Z.ltb_lt in E; lia|]. cbn. right. split; [exact A|reflexivity].
Qed.

Lemma shift_trk_exp d t : t_exp (shift_trk d t) = t_exp t /\ t_unexp (shift_trk d t) = t_unexp t.
Proof. unfold shift_trk. destruct (t_pos t <? 0)%Z; split; reflexivity. Qed.

Lemma shift_res_fuel d r : shift_res d r = Fuel -> r = Fuel.
Proof. destruct r; cbn; intros H; try discriminate H. reflexivity. Qed.

Lemma parse_suffix_finishes : forall g f rule input k,
  all_grammar not_soi g = true -> k <= length input ->
  parse g f rule input k <> Fuel -> parse g f rule (skipn k input) 0 <> Fuel.
Proof.
  intros g f rule input k Hg Hk D E. apply D.
  rewrite (parse_shift g f rule input k Hg Hk), E. reflexivity.
Qed.

Lemma parse_shift_any : forall g f1 f2 rule input k r r2,
  all_grammar not_soi g = true -> k <= length input ->
  parse g f1 rule input k = r -> r <> Fuel ->
  parse g f2 rule (skipn k input) 0 = r2 -> r2 <> Fuel ->
  r = shift_res (N.of_nat k) r2 /\ res_trk_nonneg r2.
Proof.
  intros g f1 f2 rule input k r r2 Hg Hk H D H2 D2.
  assert (D1 : parse g f1 rule (skipn k input) 0 <> Fuel).
  { apply parse_suffix_finishes; [exact Hg|exact Hk|rewrite H; exact D]. }
  assert (E := parse_at g f1 rule (skipn k input) 0 _ eq_refl D1 f2 r2 H2 D2).
  split.
  - rewrite <- H, E. apply parse_shift; assumption.
  - rewrite <- H2. apply parse0_trk.
Qed.

Lemma iparse_res : forall g, one_modifier g -> forall f rule input k m s ps,
  iparse g f rule input k = IOk m s ps ->
  exists f', parse g f' rule input k = ires_abs (IOk m s ps).
Proof.
  intros g NS f rule input k m s ps H.
  destruct (iparse_abs g (one_modifier_silent_ok g NS) f rule input k) as [_ P]; [rewrite H; discriminate|].
  rewrite H in P. exact P.
Qed.

Lemma gparse_nil_trk : forall g f rule input k m s ps,
  gparse g [] f rule input k = GOk m s ps ->
  exists si pi, iparse g f rule input k = IOk m si pi /\ i_trk s = i_trk si.
Proof.
  intros g f rule input k m s ps H.
  assert (T := gparse_interp g f rule input k). rewrite H in T.
  destruct (iparse g f rule input k) as [mi si pi| | |]; try contradiction.
  destruct T as [<- T]. exists si, pi. split; [reflexivity|].
  destruct m; [destruct T as [<- _]; reflexivity|destruct T as (_&_&_&_&_&_&_&_&_&T); exact T].
Qed.

(* with rules emitted in place the furthest-failure POSITION is the interpreter's, the names in
   the tracker are not.  Every theorem below about the generated code is the theorem about the
   interpreter carried along this correspondence. *)
Lemma gparse_as_interp : forall g inl, inl_ok g inl ->
  forall f rule input k m s ps, inlined inl rule = false ->
  gparse g inl f rule input k = GOk m s ps ->
  exists si pi, iparse g f rule input k = IOk m si pi /\ t_pos (i_trk s) = t_pos (i_trk si) /\
    (m = true -> ps = pi /\ i_pos s = i_pos si /\ i_rest s = i_rest si /\
                 i_user s = i_user si /\ i_tags s = i_tags si).
Proof.
  intros g inl HI f rule input k m s ps NI H.
  assert (T := gparse_iparse g inl HI f rule input k NI). rewrite H in T.
  destruct (iparse g f rule input k) as [mi si pi| | |]; try contradiction.
  destruct T as (<- & T). exists si, pi. split; [reflexivity|exact T].
Qed.

(* C06: tree well-formedness, single root, tags *)

Theorem machine_C06_wellformed_interp : forall g, one_modifier g ->
  forall f rule input k s ps, k <= length input ->
  iparse g f rule input k = IOk true s ps ->
  chain (PN g) (N.of_nat k) (i_pos s) ps /\ N.to_nat (i_pos s) <= length input.
Proof.
  intros g NS f rule input k s ps Hk H.
  destruct (iparse_res g NS f rule input k _ s ps H) as [f' P].
  exact (parse_wellformed g input k f' rule _ _ Hk P).
Qed.

Theorem machine_C06_single_root_interp : forall g, one_modifier g ->
  forall f rule input k r s ps, lookup g rule = Some r -> r_silent r = false ->
  iparse g f rule input k = IOk true s ps ->
  exists kids tag, ps = [Pair rule (N.of_nat k) (i_pos s) kids tag].
Proof.
  intros g NS f rule input k r s ps L S H.
  destruct (iparse_res g NS f rule input k _ s ps H) as [f' P].
  exact (parse_single_root g input k f' rule r _ _ L S P).
Qed.

Theorem machine_C06_tags_interp : forall g, one_modifier g ->
  forall f rule input k s ps, iparse g f rule input k = IOk true s ps ->
  forall t, In t (tree_tags ps) -> In t (grammar_tags g).
Proof.
  intros g NS f rule input k s ps H.
  destruct (iparse_res g NS f rule input k _ s ps H) as [f' P].
  exact (parse_tags g f' rule input k _ _ P).
Qed.

Theorem machine_C06_wellformed_gen : forall g inl, one_modifier g -> inl_ok g inl ->
  forall f rule input k s ps, inlined inl rule = false -> k <= length input ->
  gparse g inl f rule input k = GOk true s ps ->
  chain (PN g) (N.of_nat k) (i_pos s) ps /\ N.to_nat (i_pos s) <= length input.
Proof.
  intros g inl NS HI f rule input k s ps NI Hk H.
  destruct (gparse_as_interp g inl HI f rule input k _ s ps NI H) as (si & pi & E & _ & T).
  destruct (T eq_refl) as (<- & -> & _).
  exact (machine_C06_wellformed_interp g NS f rule input k si ps Hk E).
Qed.

Theorem machine_C06_single_root_gen : forall g inl, one_modifier g -> inl_ok g inl ->
  forall f rule input k r s ps, inlined inl rule = false ->
  lookup g rule = Some r -> r_silent r = false ->
  gparse g inl f rule input k = GOk true s ps ->
  exists kids tag, ps = [Pair rule (N.of_nat k) (i_pos s) kids tag].
Proof.
  intros g inl NS HI f rule input k r s ps NI L S H.
  destruct (gparse_as_interp g inl HI f rule input k _ s ps NI H) as (si & pi & E & _ & T).
  destruct (T eq_refl) as (<- & -> & _).
  exact (machine_C06_single_root_interp g NS f rule input k r si ps L S E).
Qed.

Theorem machine_C06_tags_gen : forall g inl, one_modifier g -> inl_ok g inl ->
  forall f rule input k s ps, inlined inl rule = false ->
  gparse g inl f rule input k = GOk true s ps ->
  forall t, In t (tree_tags ps) -> In t (grammar_tags g).
Proof.
  intros g inl NS HI f rule input k s ps NI H.
  destruct (gparse_as_interp g inl HI f rule input k _ s ps NI H) as (si & pi & E & _ & T).
  destruct (T eq_refl) as (<- & _).
  exact (machine_C06_tags_interp g NS f rule input k si ps E).
Qed.

(* C13: the furthest-failure position (and names) of a failed run *)

Theorem machine_C13_position_interp : forall g, one_modifier g ->
  forall f rule input k s ps, k <= length input ->
  iparse g f rule input k = IOk false s ps ->
  t_pos (i_trk s) = (-1)%Z \/ (Z.of_nat k <= t_pos (i_trk s) <= Z.of_nat (length input))%Z.
Proof.
  intros g NS f rule input k s ps Hk H.
  destruct (iparse_res g NS f rule input k _ s ps H) as [f' P].
  exact (parse_fail_position g input k f' rule _ Hk P).
Qed.

Theorem machine_C13_names_interp : forall g, one_modifier g ->
  forall f rule input k s ps, k <= length input ->
  iparse g f rule input k = IOk false s ps ->
  Forall (fun n => exists r, lookup g n = Some r) (t_exp (i_trk s)) /\
  Forall (fun n => exists r, lookup g n = Some r) (t_unexp (i_trk s)).
Proof.
  intros g NS f rule input k s ps Hk H.
  destruct (iparse_res g NS f rule input k _ s ps H) as [f' P].
  exact (parse_fail_names g input k f' rule _ Hk P).
Qed.

Theorem machine_C13_position_gen : forall g inl, one_modifier g -> inl_ok g inl ->
  forall f rule input k s ps, inlined inl rule = false -> k <= length input ->
  gparse g inl f rule input k = GOk false s ps ->
  t_pos (i_trk s) = (-1)%Z \/ (Z.of_nat k <= t_pos (i_trk s) <= Z.of_nat (length input))%Z.
Proof.
  intros g inl NS HI f rule input k s ps NI Hk H.
  destruct (gparse_as_interp g inl HI f rule input k _ s ps NI H) as (si & pi & E & -> & _).
  exact (machine_C13_position_interp g NS f rule input k si pi Hk E).
Qed.

(* names: with nothing emitted in place (the tracker is then the reference's) *)
Theorem machine_C13_names_gen : forall g, one_modifier g ->
  forall f rule input k s ps, k <= length input ->
  gparse g [] f rule input k = GOk false s ps ->
  Forall (fun n => exists r, lookup g n = Some r) (t_exp (i_trk s)) /\
  Forall (fun n => exists r, lookup g n = Some r) (t_unexp (i_trk s)).
Proof.
  intros g NS f rule input k s ps Hk H.
  destruct (gparse_nil_trk g f rule input k _ s ps H) as (si & pi & E & ->).
  exact (machine_C13_names_interp g NS f rule input k si pi Hk E).
Qed.

(* C16: parsing from start position k is parsing the suffix from 0, shifted by k *)

Lemma iparse_shift : forall g, one_modifier g -> all_grammar not_soi g = true ->
  forall f1 f2 rule input k, k <= length input ->
  iparse g f1 rule input k <> IFuel -> iparse g f2 rule (skipn k input) 0 <> IFuel ->
  ires_abs (iparse g f1 rule input k) <> Fuel /\
  ires_abs (iparse g f1 rule input k) =
    shift_res (N.of_nat k) (ires_abs (iparse g f2 rule (skipn k input) 0)) /\
  res_trk_nonneg (ires_abs (iparse g f2 rule (skipn k input) 0)).
Proof.
  intros g NS Hg f1 f2 rule input k Hk D1 D2.
  destruct (iparse_abs g (one_modifier_silent_ok g NS) f1 rule input k D1) as [N1 [f1' P1]].
  destruct (iparse_abs g (one_modifier_silent_ok g NS) f2 rule (skipn k input) 0 D2) as [N2 [f2' P2]].
  split; [exact N1|]. exact (parse_shift_any g f1' f2' rule input k _ _ Hg Hk P1 N1 P2 N2).
Qed.

Theorem machine_C16_shift_any_interp : forall g, one_modifier g -> all_grammar not_soi g = true ->
  forall f1 f2 rule input k, k <= length input ->
  match iparse g f1 rule input k, iparse g f2 rule (skipn k input) 0 with
  | IOk true s ps, IOk true s2 ps2 =>
      ps = shift_pairs (N.of_nat k) ps2 /\
      i_pos s = (i_pos s2 + N.of_nat k)%N /\ i_rest s = i_rest s2 /\
      i_user s = i_user s2 /\ i_tags s = i_tags s2 /\
      pos_shifted (N.of_nat k) (t_pos (i_trk s2)) (t_pos (i_trk s)) /\
      t_exp (i_trk s) = t_exp (i_trk s2) /\ t_unexp (i_trk s) = t_unexp (i_trk s2)
  | IOk false s _, IOk false s2 _ =>
      pos_shifted (N.of_nat k) (t_pos (i_trk s2)) (t_pos (i_trk s)) /\
      t_exp (i_trk s) = t_exp (i_trk s2) /\ t_unexp (i_trk s) = t_unexp (i_trk s2)
  | IUndef, IUndef => True
  | IFuel, _ | _, IFuel => True
  | _, _ => False
  end.
Proof.
  intros g NS Hg f1 f2 rule input k Hk.
  assert (X := iparse_shift g NS Hg f1 f2 rule input k Hk).
  destruct (iparse g f1 rule input k) as [[|] s ps| | |];
    destruct (iparse g f2 rule (skipn k input) 0) as [[|] s2 ps2| | |]; try exact I;
    destruct (X ltac:(discriminate) ltac:(discriminate)) as (N1 & E & T);
    cbn [ires_abs shift_res res_trk_nonneg] in N1, E, T;
    try discriminate E; try (exfalso; apply N1; reflexivity);
    destruct (shift_trk_exp (N.of_nat k) (i_trk s2)) as [Y1 Y2].
  - inversion E as [[E1 E2 E3 E4 E5 E6]]. rewrite E5.
    repeat (split; [reflexivity|]). split; [apply shift_trk_pos; exact T|]. split; assumption.
  - inversion E as [E1]. rewrite E1. split; [apply shift_trk_pos; exact T|]. split; assumption.
Qed.

(* a finished run from k has a finished counterpart on the suffix *)
Theorem machine_C16_shift_interp : forall g, one_modifier g -> all_grammar not_soi g = true ->
  forall f rule input k m s ps, k <= length input ->
  iparse g f rule input k = IOk m s ps ->
  exists f',
    match iparse g f' rule (skipn k input) 0 with
    | IOk m2 s2 ps2 =>
        m2 = m /\
        (if m then
           ps = shift_pairs (N.of_nat k) ps2 /\
           i_pos s = (i_pos s2 + N.of_nat k)%N /\ i_rest s = i_rest s2 /\
           i_user s = i_user s2 /\ i_tags s = i_tags s2
         else True) /\
        pos_shifted (N.of_nat k) (t_pos (i_trk s2)) (t_pos (i_trk s)) /\
        t_exp (i_trk s) = t_exp (i_trk s2) /\ t_unexp (i_trk s) = t_unexp (i_trk s2)
    | _ => False
    end.
Proof.
  intros g NS Hg f rule input k m s ps Hk H.
  destruct (iparse_abs g (one_modifier_silent_ok g NS) f rule input k) as [D [f1 P]];
    [rewrite H; discriminate|].
  assert (D' : parse g f1 rule (skipn k input) 0 <> Fuel).
  { apply parse_suffix_finishes; [exact Hg|exact Hk|rewrite P; exact D]. }
  destruct (iparse_terminates g (one_modifier_silent_ok g NS) f1 rule (skipn k input) 0 _ eq_refl D')
    as [f' T].
  exists f'.
  assert (A := machine_C16_shift_any_interp g NS Hg f f' rule input k Hk).
  rewrite H in A.
  destruct (iparse g f' rule (skipn k input) 0) as [m2 s2 ps2| | |].
  - destruct m, m2; try contradiction.
    + destruct A as (A1&A2&A3&A4&A5&A6&A7&A8). repeat split; assumption.
    + destruct A as (A6&A7&A8). repeat split; assumption.
  - destruct m; contradiction.
  - destruct m; contradiction.
  - exfalso. apply T. reflexivity.
Qed.

Theorem machine_C16_shift_any_gen : forall g inl, one_modifier g -> inl_ok g inl ->
  all_grammar not_soi g = true ->
  forall f1 f2 rule input k, inlined inl rule = false -> k <= length input ->
  match gparse g inl f1 rule input k, gparse g inl f2 rule (skipn k input) 0 with
  | GOk true s ps, GOk true s2 ps2 =>
      ps = shift_pairs (N.of_nat k) ps2 /\
      i_pos s = (i_pos s2 + N.of_nat k)%N /\ i_rest s = i_rest s2 /\
      i_user s = i_user s2 /\ i_tags s = i_tags s2 /\
      pos_shifted (N.of_nat k) (t_pos (i_trk s2)) (t_pos (i_trk s))
  | GOk false s _, GOk false s2 _ =>
      pos_shifted (N.of_nat k) (t_pos (i_trk s2)) (t_pos (i_trk s))
  | GUndef, GUndef => True
  | GFuel, _ | _, GFuel => True
  | _, _ => False
  end.
Proof.
  intros g inl NS HI Hg f1 f2 rule input k NI Hk.
  assert (T1 := gparse_iparse g inl HI f1 rule input k NI).
  assert (T2 := gparse_iparse g inl HI f2 rule (skipn k input) 0 NI).
  assert (A := machine_C16_shift_any_interp g NS Hg f1 f2 rule input k Hk).
  destruct (gparse g inl f1 rule input k) as [m s ps| | |];
    destruct (iparse g f1 rule input k) as [mi si pi| | |]; try contradiction;
    destruct (gparse g inl f2 rule (skipn k input) 0) as [m2 s2 ps2| | |];
    destruct (iparse g f2 rule (skipn k input) 0) as [mi2 si2 pi2| | |]; try contradiction;
    try destruct T1 as (<- & P1 & T1); try destruct T2 as (<- & P2 & T2);
    try destruct m; try destruct m2; try exact I; try contradiction.
  - destruct (T1 eq_refl) as (-> & -> & -> & -> & ->). destruct (T2 eq_refl) as (-> & -> & -> & -> & ->).
    rewrite P1, P2. destruct A as (A1&A2&A3&A4&A5&A6&_). repeat split; assumption.
  - rewrite P1, P2. exact (proj1 A).
Qed.

Theorem machine_C16_shift_gen : forall g inl, one_modifier g -> inl_ok g inl ->
  all_grammar not_soi g = true ->
  forall f rule input k m s ps, inlined inl rule = false -> k <= length input ->
  gparse g inl f rule input k = GOk m s ps ->
  exists f',
    match gparse g inl f' rule (skipn k input) 0 with
    | GOk m2 s2 ps2 =>
        m2 = m /\
        (if m then
           ps = shift_pairs (N.of_nat k) ps2 /\
           i_pos s = (i_pos s2 + N.of_nat k)%N /\ i_rest s = i_rest s2 /\
           i_user s = i_user s2 /\ i_tags s = i_tags s2
         else True) /\
        pos_shifted (N.of_nat k) (t_pos (i_trk s2)) (t_pos (i_trk s))
    | _ => False
    end.
Proof.
  intros g inl NS HI Hg f rule input k m s ps NI Hk H.
  destruct (gparse_as_interp g inl HI f rule input k m s ps NI H) as (si & pi & E & P1 & T1).
  destruct (machine_C16_shift_interp g NS Hg f rule input k m si pi Hk E) as [f' A].
  exists f'.
  assert (T2 := gparse_iparse g inl HI f' rule (skipn k input) 0 NI).
  destruct (iparse g f' rule (skipn k input) 0) as [mi2 si2 pi2| | |]; try contradiction.
  destruct (gparse g inl f' rule (skipn k input) 0) as [m2 s2 ps2| | |]; try contradiction.
  destruct T2 as (-> & P2 & T2). destruct A as (-> & A1 & A2 & _).
  rewrite P1, P2. split; [reflexivity|]. split; [|exact A2].
  destruct m; [|exact I].
  destruct (T1 eq_refl) as (-> & -> & -> & -> & ->). destruct (T2 eq_refl) as (-> & -> & -> & -> & ->).
  exact A1.
Qed.

(* with nothing emitted in place the names in the tracker are related too *)
Theorem machine_C16_shift_names_gen : forall g, one_modifier g -> all_grammar not_soi g = true ->
  forall f1 f2 rule input k s ps s2 ps2 m, k <= length input ->
  gparse g [] f1 rule input k = GOk m s ps ->
  gparse g [] f2 rule (skipn k input) 0 = GOk m s2 ps2 ->
  t_exp (i_trk s) = t_exp (i_trk s2) /\ t_unexp (i_trk s) = t_unexp (i_trk s2).
Proof.
  intros g NS Hg f1 f2 rule input k s ps s2 ps2 m Hk H1 H2.
  destruct (gparse_nil_trk g f1 rule input k m s ps H1) as (si & pi & E1 & ->).
  destruct (gparse_nil_trk g f2 rule (skipn k input) 0 m s2 ps2 H2) as (si2 & pi2 & E2 & ->).
  assert (A := machine_C16_shift_any_interp g NS Hg f1 f2 rule input k Hk). rewrite E1, E2 in A.
  destruct m; [destruct A as (_&_&_&_&_&_&A)|destruct A as (_&A)]; exact A.
Qed.

Print Assumptions machine_C06_wellformed_interp.
Print Assumptions machine_C06_single_root_interp.
Print Assumptions machine_C06_tags_interp.
Print Assumptions machine_C06_wellformed_gen.
Print Assumptions machine_C06_single_root_gen.
Print Assumptions machine_C06_tags_gen.
Print Assumptions machine_C13_position_interp.
Print Assumptions machine_C13_names_interp.
Print Assumptions machine_C13_position_gen.
Print Assumptions machine_C13_names_gen.
Print Assumptions machine_C16_shift_any_interp.
Print Assumptions machine_C16_shift_interp.
Print Assumptions machine_C16_shift_any_gen.
Print Assumptions machine_C16_shift_gen.
Print Assumptions machine_C16_shift_names_gen.
