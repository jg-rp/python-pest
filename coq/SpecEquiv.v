(* SpecEquiv.v — meaning-preserving rewrites of the reference semantics: the failure tracker
   (and the context fields it is computed from) never influences control flow; groups,
   duplicated / impossible alternatives, re-association, extraction into a silent rule;
   semantic equivalence is a congruence. *)
From Coq Require Import List ZArith Bool Lia.
Import ListNotations.
From PP Require Import Base Syntax Spec SpecSyn SpecLaws.

Definition st_core (s : st) := (s_pos s, s_rest s, s_stk s, s_tags s).

Definition core (r : res) : option (option ((N * text * list text * list N) * list pair)) :=
  match r with
  | Ok s ps => Some (Some (st_core s, ps))
  | Fail _ => Some None
  | Err => None
  | Fuel => None
  end.

Definition same_core (s1 s2 : st) := st_core s1 = st_core s2.

(* equality of cores with Err and Fuel kept apart; what the simulations are stated with *)
Definition req (r1 r2 : res) : Prop :=
  match r1, r2 with
  | Ok s1 p1, Ok s2 p2 => same_core s1 s2 /\ p1 = p2
  | Fail _, Fail _ => True
  | Err, Err => True
  | Fuel, Fuel => True
  | _, _ => False
  end.

Lemma req_core r1 r2 : req r1 r2 -> core r1 = core r2.
Proof.
  destruct r1, r2; cbn; try contradiction; try reflexivity.
  intros [H ->]. unfold same_core in H. rewrite H. reflexivity.
Qed.

Lemma core_req r1 r2 : r1 <> Fuel -> r2 <> Fuel -> core r1 = core r2 -> req r1 r2.
Proof.
  destruct r1, r2; cbn; intros D1 D2 H; try discriminate; try congruence; try exact I.
  split; [unfold same_core; congruence|congruence].
Qed.

Lemma req_refl r : req r r.
Proof. destruct r; cbn; try exact I. split; reflexivity. Qed.

Lemma req_sym r1 r2 : req r1 r2 -> req r2 r1.
Proof.
  destruct r1, r2; cbn; try contradiction; try (intros; exact I).
  intros [H ->]. split; [symmetry; exact H|reflexivity].
Qed.

Lemma req_trans r1 r2 r3 : req r1 r2 -> req r2 r3 -> req r1 r3.
Proof.
  destruct r1, r2; cbn; try contradiction; destruct r3; cbn; try contradiction; try (intros; exact I).
  intros [H ->] [H' ->]. split; [unfold same_core in *; congruence|reflexivity].
Qed.

Lemma req_fuel_l r : req Fuel r -> r = Fuel.
Proof. destruct r; cbn; try contradiction. reflexivity. Qed.

Lemma req_nofuel r1 r2 : req r1 r2 -> r2 <> Fuel -> r1 <> Fuel.
Proof. destruct r1, r2; cbn; try contradiction; congruence. Qed.

Lemma same_core_refl s : same_core s s.
Proof. reflexivity. Qed.
Lemma same_core_sym s1 s2 : same_core s1 s2 -> same_core s2 s1.
Proof. unfold same_core. congruence. Qed.
Lemma same_core_trans s1 s2 s3 : same_core s1 s2 -> same_core s2 s3 -> same_core s1 s3.
Proof. unfold same_core. congruence. Qed.

Lemma same_core_inv s1 s2 : same_core s1 s2 ->
  s_pos s1 = s_pos s2 /\ s_rest s1 = s_rest s2 /\ s_stk s1 = s_stk s2 /\ s_tags s1 = s_tags s2.
Proof. unfold same_core, st_core. intros H. inversion H. repeat split; reflexivity || assumption. Qed.

Lemma same_core_set_trk s1 s2 t1 t2 : same_core s1 s2 -> same_core (set_trk s1 t1) (set_trk s2 t2).
Proof. intros H. exact H. Qed.
Lemma same_core_set_trk_l s t : same_core (set_trk s t) s.
Proof. reflexivity. Qed.
Lemma same_core_set_trk_r s t : same_core s (set_trk s t).
Proof. reflexivity. Qed.

Lemma same_core_adv s1 s2 n r : same_core s1 s2 -> same_core (adv s1 n r) (adv s2 n r).
Proof. unfold same_core, st_core. cbn. congruence. Qed.
Lemma same_core_set_stk s1 s2 k : same_core s1 s2 -> same_core (set_stk s1 k) (set_stk s2 k).
Proof. unfold same_core, st_core. cbn. congruence. Qed.
Lemma same_core_set_tags s1 s2 k : same_core s1 s2 -> same_core (set_tags s1 k) (set_tags s2 k).
Proof. unfold same_core, st_core. cbn. congruence. Qed.
Lemma same_core_push_tag tag s1 s2 : same_core s1 s2 -> same_core (push_tag tag s1) (push_tag tag s2).
Proof.
  intros H. destruct tag; [|exact H]. cbn.
  destruct (same_core_inv _ _ H) as [A [B [C D]]]. rewrite D. apply same_core_set_tags. exact H.
Qed.
Lemma same_core_pop_tag tag s1 s2 : same_core s1 s2 -> same_core (pop_tag tag s1) (pop_tag tag s2).
Proof.
  intros H. destruct tag; [|exact H]. cbn.
  destruct (same_core_inv _ _ H) as [A [B [C D]]]. rewrite D. apply same_core_set_tags. exact H.
Qed.

Lemma req_ok s1 s2 p : same_core s1 s2 -> req (Ok s1 p) (Ok s2 p).
Proof. intros H. split; [exact H|reflexivity]. Qed.
Lemma req_fail t1 t2 : req (Fail t1) (Fail t2).
Proof. exact I. Qed.

Create HintDb req.
#[global] Hint Resolve req_ok req_fail same_core_refl same_core_set_trk same_core_adv same_core_set_stk
  same_core_set_tags same_core_push_tag same_core_pop_tag : req.

Lemma req_call x1 x2 (k1 k1' : st -> list pair -> res) (k2 k2' : trk -> res) :
  req x1 x2 ->
  (forall s1 s2 p, same_core s1 s2 -> req (k1 s1 p) (k1' s2 p)) ->
  (forall t1 t2, req (k2 t1) (k2' t2)) ->
  req (match x1 with Ok s p => k1 s p | Fail t => k2 t | Err => Err | Fuel => Fuel end)
      (match x2 with Ok s p => k1' s p | Fail t => k2' t | Err => Err | Fuel => Fuel end).
Proof.
  intros R H1 H2. destruct x1, x2; cbn [req] in R; try contradiction; try exact I.
  - destruct R as [R ->]. apply H1. exact R.
  - apply H2.
Qed.

Lemma yields_req (m m' : nat -> res) : (forall f, req (m' f) (m f)) ->
  forall r, yields m r -> exists r', yields m' r' /\ req r' r.
Proof.
  intros H r [f [E D]]. subst r. exists (m' f). split; [|apply H].
  exists f. split; [reflexivity|]. eapply req_nofuel; [apply H|exact D].
Qed.

(* One simulation covers tracker irrelevance, irrelevance of the context fields that only feed
   the tracker (c_rule, c_neg, c_sup), and grammar extension by unreferenced rules. *)

(* predicates on expression nodes that only constrain the names of rule references *)
Definition refp (q : N -> bool) (x : expr) : bool :=
  match x with ERef m _ => q m | _ => true end.

Section Sim.
Variables g1 g2 : grammar.
Variable q : N -> bool.
Notation p := (refp q).
Hypothesis Hlk : forall n, q n = true -> lookup g1 n = lookup g2 n.
Hypothesis Hg : all_grammar p g2 = true.
Hypothesis Hse : skip_expr g1 = skip_expr g2.
Hypothesis Hsk : forall e, skip_expr g2 = Some e -> all_sub p e = true.

Definition sim_at (f : nat) : Prop :=
  forall c1 c2 t s1 s2, c_atom c1 = c_atom c2 -> same_core s1 s2 -> all_task p t = true ->
    req (run g1 f c1 t s1) (run g2 f c2 t s2).

Lemma skip_sim f : sim_at f -> forall c1 c2 s1 s2, c_atom c1 = c_atom c2 -> same_core s1 s2 ->
  req (skip_with g1 (fun c' e' => run g1 f c' (TEval e')) c1 s1)
      (skip_with g2 (fun c' e' => run g2 f c' (TEval e')) c2 s2).
Proof.
  intros IH c1 c2 s1 s2 Hc Hs. unfold skip_with. rewrite Hse, Hc.
  destruct (c_atom c2); auto with req.
  destruct (skip_expr g2) as [e|]; auto with req.
  apply IH; [reflexivity|exact Hs|apply Hsk; reflexivity].
Qed.

Lemma sim_all : forall f, sim_at f.
Proof.
  induction f as [|f IH]; intros c1 c2 t s1 s2 Hc Hs Ht; [exact I|].
  assert (IHk := skip_sim f IH).
  destruct (same_core_inv _ _ Hs) as [Ep [Er [Ek Eg]]].
  destruct t as [e|es|es|e]; cbn [all_task] in Ht.
  - destruct (unroll e) as [t|] eqn:U.
    { rewrite (run_unroll g1 e t U), (run_unroll g2 e t U). apply IH; [exact Hc|exact Hs|].
      revert U Ht. apply all_task_unroll; reflexivity. }
    destruct e; try discriminate U; cbn [all_sub] in Ht;
      (apply andb_prop in Ht; destruct Ht as [Hp Ht]);
      cbn [run].
    + (* EStr *) rewrite Er. destruct (strip_prefix _ _); auto with req.
    + rewrite Er. destruct (strip_prefix_ci _ _); auto with req.
    + rewrite Er. destruct (s_rest s2); [|destruct (_ && _)]; auto with req.
    + rewrite Er. destruct (s_rest s2); auto with req.
    + rewrite Ep. destruct (N.eqb _ _); auto with req.
    + rewrite Er. destruct (s_rest s2); auto with req.
    + rewrite Er. destruct (s_rest s2); [|destruct (in_ranges _ _)]; auto with req.
    + (* ERef *) rewrite (Hlk n Hp).
      destruct (lookup g2 n) as [r|] eqn:EL; [|exact I].
      apply req_call; [|intros s1' s2' kids R|auto with req].
      * apply IH; [|auto with req|exact (all_grammar_lookup p g2 n r Hg EL)].
        unfold rule_ctx, body_atom. cbn [c_atom]. rewrite Hc. reflexivity.
      * unfold finish_rule, visible. destruct (same_core_inv _ _ R) as [Ep' [_ [_ Eg']]].
        rewrite Hc, Ep, Ep', Eg'.
        destruct (r_silent r); [|destruct (_ && _)]; auto with req.
    + (* EOpt *) apply req_call; [apply IH; assumption| |]; auto with req.
    + (* EStar *) apply req_call; [apply IH; assumption|intros s1' s2' p1 R|auto with req].
      apply req_call; [apply IH; assumption| |]; auto with req.
    + (* EAnd *) apply req_call; [apply IH; assumption| |]; auto with req.
    + (* ENot *) apply req_call; [apply IH; assumption| |]; auto with req.
    + (* EGrp *) apply req_call; [apply IH; auto with req| |]; auto with req.
    + (* EPush *) apply req_call; [apply IH; assumption|intros s1' s2' ps R|auto with req].
      destruct (same_core_inv _ _ R) as [Ep' [_ [Ek' _]]]. rewrite Ep, Er, Ep', Ek'. auto with req.
    + (* EPushLit *) rewrite Ek. auto with req.
    + (* EPeek *) rewrite Ek, Er. destruct (s_stk s2); [|destruct (strip_prefix _ _)]; auto with req.
    + rewrite Ek, Er. destruct (match_all _ _ _) as [[r n]|]; auto with req.
    + rewrite Ek, Er. destruct (match_all _ _ _) as [[r n]|]; auto with req.
    + (* EPop *) rewrite Ek, Er. destruct (s_stk s2); [|destruct (strip_prefix _ _)]; auto with req.
    + rewrite Ek, Er. destruct (match_all _ _ _) as [[r n]|]; auto with req.
    + (* EDrop *) rewrite Ek. destruct (s_stk s2); auto with req.
    + (* ESkipUntil *) rewrite Er. auto with req.
  - cbn [run]. destruct es as [|e1 es']; [auto with req|].
    cbn [all_list forallb] in Ht. apply andb_prop in Ht. destruct Ht as [H1 H2].
    apply req_call; [apply IH; assumption|intros s1' s2' p1 R1|auto with req].
    destruct es' as [|e2 es'']; [auto with req|].
    apply req_call; [apply IHk; assumption|intros s1'' s2'' pw R2|auto with req].
    apply req_call; [apply IH; assumption| |]; auto with req.
  - cbn [run]. destruct es as [|e1 es']; [exact I|].
    cbn [all_list forallb] in Ht. apply andb_prop in Ht. destruct Ht as [H1 H2].
    apply req_call; [apply IH; assumption|auto with req|].
    intros t1 t2. apply IH; auto with req.
  - cbn [run].
    apply req_call; [apply IHk; assumption|intros s1' s2' pw R2|auto with req].
    apply req_call; [apply IH; assumption|intros s1'' s2'' p3 R3|auto with req].
    apply req_call; [apply IH; assumption| |]; auto with req.
Qed.

End Sim.

Definition qtrue (n : N) : bool := true.

Lemma all_sub_true : forall e, all_sub (refp qtrue) e = true.
Proof.
  fix IH 1. intros e.
  destruct e; cbn [all_sub refp qtrue andb]; try reflexivity; try apply IH.
  - induction es as [|x es IHes]; [reflexivity|]. rewrite IH. exact IHes.
  - induction es as [|x es IHes]; [reflexivity|]. rewrite IH. exact IHes.
Qed.

Lemma all_list_true es : all_list (refp qtrue) es = true.
Proof. induction es as [|x es IH]; [reflexivity|]. cbn. rewrite all_sub_true. exact IH. Qed.

Lemma all_task_true t : all_task (refp qtrue) t = true.
Proof. destruct t; cbn; try apply all_sub_true; apply all_list_true. Qed.

Lemma all_grammar_true g : all_grammar (refp qtrue) g = true.
Proof. induction g as [|r g IH]; [reflexivity|]. cbn. rewrite all_sub_true. exact IH. Qed.

Theorem run_core_ctx : forall g f c1 c2 t s1 s2, c_atom c1 = c_atom c2 -> same_core s1 s2 ->
  req (run g f c1 t s1) (run g f c2 t s2).
Proof.
  intros g f c1 c2 t s1 s2 Hc Hs.
  apply (sim_all g g qtrue); try assumption.
  - intros; reflexivity.
  - apply all_grammar_true.
  - reflexivity.
  - intros; apply all_sub_true.
  - apply all_task_true.
Qed.

Lemma skip_core_ctx : forall g f c1 c2 s1 s2, c_atom c1 = c_atom c2 -> same_core s1 s2 ->
  req (skip_with g (fun c' e' => run g f c' (TEval e')) c1 s1)
      (skip_with g (fun c' e' => run g f c' (TEval e')) c2 s2).
Proof.
  intros g f c1 c2 s1 s2 Hc Hs.
  apply (skip_sim g g qtrue); try assumption.
  - reflexivity.
  - intros; apply all_sub_true.
  - intros c1' c2' t s1' s2' Hc' Hs' _. apply run_core_ctx; assumption.
Qed.

Section Equiv.
Variable g : grammar.

Theorem trk_irrelevant4 : forall f c t s1 s2, same_core s1 s2 ->
  req (run g f c t s1) (run g f c t s2).
Proof. intros f c t s1 s2. apply run_core_ctx. reflexivity. Qed.

(* the context fields c_rule, c_neg, c_sup only feed the tracker *)
Theorem ctx_irrelevant : forall f c1 c2 t s1 s2, c_atom c1 = c_atom c2 -> same_core s1 s2 ->
  core (run g f c1 t s1) = core (run g f c2 t s2).
Proof. intros f c1 c2 t s1 s2 Hc Hs. apply req_core. apply run_core_ctx; assumption. Qed.

Theorem trk_irrelevant : forall f c t s1 s2, same_core s1 s2 ->
  core (run g f c t s1) = core (run g f c t s2).
Proof. intros f c t s1 s2. apply ctx_irrelevant. reflexivity. Qed.

Definition skips (c : ctx) (s : st) (r : res) : Prop :=
  exists f, skip_with g (fun c' e' => run g f c' (TEval e')) c s = r /\ r <> Fuel.

Lemma skips_det c s r1 r2 : skips c s r1 -> skips c s r2 -> r1 = r2.
Proof. apply yields_det. apply skip_stable. Qed.

Lemma runs_nofuel c t s r : runs g c t s r -> r <> Fuel.
Proof. intros [f [_ D]]. exact D. Qed.

Lemma runs_core c1 c2 t s1 s2 r : c_atom c1 = c_atom c2 -> same_core s1 s2 ->
  runs g c1 t s1 r -> exists r', runs g c2 t s2 r' /\ req r' r.
Proof.
  intros Hc Hs. apply yields_req. intros f.
  apply run_core_ctx; [symmetry; exact Hc|apply same_core_sym; exact Hs].
Qed.

Lemma runs_seq_nil c s r : runs g c (TSeq []) s r <-> r = Ok s [].
Proof. rewrite runs_settles. cbn [run]. apply settles_ret. discriminate. Qed.

Lemma runs_seq_one c e s r : runs g c (TSeq [e]) s r <-> evals g c e s r.
Proof. unfold evals. apply runs_step. intros f. apply seq_last_no_trivia. Qed.

Definition addp (p : list pair) (z : res) : res :=
  match z with Ok s3 p3 => Ok s3 (p ++ p3) | w => w end.

Lemma runs_seq_cons c e1 e2 es s r :
  runs g c (TSeq (e1 :: e2 :: es)) s r <->
  exists x, evals g c e1 s x /\
    match x with
    | Ok s1 p1 =>
        exists y, skips c s1 y /\
          match y with
          | Ok s2 pw => exists z, runs g c (TSeq (e2 :: es)) s2 z /\ r = addp p1 (addp pw z)
          | w => r = w
          end
    | w => r = w
    end.
Proof.
  rewrite runs_settles. cbn [run]. revert r.
  apply settles_call; [apply run_stable| |intros; apply settles_ret; discriminate|reflexivity].
  intros s1 p1. apply settles_call; [apply skip_stable| |intros; apply settles_ret; discriminate|reflexivity].
  intros s2 pw. apply settles_call; [apply run_stable|intros; apply settles_ret; discriminate..|reflexivity].
Qed.

Lemma runs_star c e s r :
  runs g c (TStar e) s r <->
  exists y, skips c s y /\
    match y with
    | Ok s2 pw =>
        exists x, evals g c e s2 x /\
          match x with
          | Ok s3 p3 => exists z, runs g c (TStar e) s3 z /\ r = addp pw (addp p3 z)
          | Fail t => r = Ok (set_trk s t) []
          | w => r = w
          end
    | w => r = w
    end.
Proof.
  rewrite runs_settles. cbn [run]. revert r.
  apply settles_call; [apply skip_stable| |intros; apply settles_ret; discriminate|reflexivity].
  intros s2 pw. apply settles_call; [apply run_stable| |intros; apply settles_ret; discriminate|reflexivity].
  intros s3 p3. apply settles_call; [apply run_stable|intros; apply settles_ret; discriminate..|reflexivity].
Qed.

Lemma evals_star c e s r :
  evals g c (EStar e) s r <->
  exists x, evals g c e s x /\
    match x with
    | Ok s1 p1 => exists z, runs g c (TStar e) s1 z /\ r = addp p1 z
    | Fail t => r = Ok (set_trk s t) []
    | w => r = w
    end.
Proof.
  unfold evals at 1. rewrite runs_settles. cbn [run]. revert r.
  apply settles_call; [apply run_stable| |intros; apply settles_ret; discriminate|reflexivity].
  intros s1 p1. apply settles_call; [apply run_stable|intros; apply settles_ret; discriminate..|reflexivity].
Qed.

(* e2 does whatever e1 does: in the same context and from the same state, whenever e1 has a result
   (so e1 terminates) e2 has one too, equal up to the tracker; Err answers Err *)
Definition sem_le (e1 e2 : expr) : Prop :=
  forall c s r, evals g c e1 s r -> exists r', evals g c e2 s r' /\ core r' = core r.
Definition sem_eq (e1 e2 : expr) : Prop := sem_le e1 e2 /\ sem_le e2 e1.

Lemma sem_le_refl e : sem_le e e.
Proof. intros c s r H. exists r. split; [exact H|reflexivity]. Qed.
Lemma sem_eq_refl e : sem_eq e e.
Proof. split; apply sem_le_refl. Qed.
Lemma sem_eq_sym e1 e2 : sem_eq e1 e2 -> sem_eq e2 e1.
Proof. intros [A B]. split; assumption. Qed.
Lemma sem_le_trans e1 e2 e3 : sem_le e1 e2 -> sem_le e2 e3 -> sem_le e1 e3.
Proof.
  intros A B c s r H. destruct (A c s r H) as [r1 [H1 C1]]. destruct (B c s r1 H1) as [r2 [H2 C2]].
  exists r2. split; [exact H2|congruence].
Qed.
Lemma sem_eq_trans e1 e2 e3 : sem_eq e1 e2 -> sem_eq e2 e3 -> sem_eq e1 e3.
Proof. intros [A B] [C D]. split; eapply sem_le_trans; eassumption. Qed.

Lemma sem_eq_of_iff e1 e2 : (forall c s r, evals g c e1 s r <-> evals g c e2 s r) -> sem_eq e1 e2.
Proof.
  intros H. split; intros c s r Hev; exists r; (split; [apply H; exact Hev|reflexivity]).
Qed.

(* Semantic equivalence is a congruence.  `covered x Q`: the outcome x of a run with some fixed
   fuel, if it is a result at all, is matched up to the tracker by one of the results Q.
   covered_call takes this through one recursive call and its continuation, so that unfolding
   `run` once on both sides proves each construct monotone (`task_sim` below). *)
Definition covered (x : res) (Q : res -> Prop) : Prop :=
  x <> Fuel -> exists r', Q r' /\ req r' x.

Lemma covered_iff x (Q Q' : res -> Prop) : (forall r, Q' r <-> Q r) -> covered x Q -> covered x Q'.
Proof. intros E H D. destruct (H D) as [r' [Hr' R]]. exists r'. split; [apply E; exact Hr'|exact R]. Qed.

Lemma covered_ret v v' : req v' v -> covered v (settles (fun _ => v')).
Proof.
  intros R D. exists v'. split; [|exact R].
  apply settles_ret; [eapply req_nofuel; eassumption|reflexivity].
Qed.

Lemma covered_call x m (k1 : st -> list pair -> res) (k2 : trk -> res)
  (k1' : nat -> st -> list pair -> res) (k2' : nat -> trk -> res) :
  stable m -> covered x (yields m) ->
  (forall s s' p, same_core s' s -> covered (k1 s p) (settles (fun f => k1' f s' p))) ->
  (forall t t', covered (k2 t) (settles (fun f => k2' f t'))) ->
  covered (match x with Ok s p => k1 s p | Fail t => k2 t | Err => Err | Fuel => Fuel end)
    (settles (fun f => match m f with
                       | Ok s p => k1' f s p | Fail t => k2' f t | Err => Err | Fuel => Fuel
                       end)).
Proof.
  intros M Hx H1 H2 D.
  destruct Hx as [x' [Hx' R]]; [intros E; rewrite E in D; exact (D eq_refl)|].
  pose (k := fun f y => match y with
                        | Ok s p => k1' f s p | Fail t => k2' f t | Err => Err | Fuel => Fuel
                        end).
  enough (C : exists r', settles (fun f => k f x') r' /\
              req r' (match x with Ok s p => k1 s p | Fail t => k2 t | Err => Err | Fuel => Fuel end)).
  { destruct C as [r' [Hr' R']]. exists r'. split; [|exact R'].
    apply (settles_bind m k r' M (fun _ => eq_refl)). exists x'. split; assumption. }
  destruct x as [s p|t| |], x' as [s' p'|t'| |]; cbn [req] in R; try contradiction.
  - destruct R as [R ->]. exact (H1 s s' p R D).
  - exact (H2 t t' D).
  - exists Err. split; [apply (settles_ret Err); [discriminate|reflexivity]|exact I].
Qed.

(* The congruences in the generality the translation validator needs (OptProof.v): the task on
   the right runs in another grammar g', in a context related by P, and the simulation is indexed
   by the fuel of the left run, which makes it usable under recursion through rules. *)
Section Two.
Variable g' : grammar.
Variable P : ctx -> ctx -> Prop.
Hypothesis Pneg : forall c c', P c c' -> P (neg_ctx c) (neg_ctx c').

Definition task_sim (n : nat) (t t' : task) : Prop :=
  forall f c c' s s', f <= n -> P c c' -> same_core s' s ->
    covered (run g f c t s) (runs g' c' t' s').

Definition trivia_sim (n : nat) : Prop :=
  forall f c c' s s', f <= n -> P c c' -> same_core s' s ->
    covered (skip_with g (fun c0 e0 => run g f c0 (TEval e0)) c s)
      (yields (fun f => skip_with g' (fun c0 e0 => run g' f c0 (TEval e0)) c' s')).

Lemma task_sim_le n m t t' : m <= n -> task_sim n t t' -> task_sim m t t'.
Proof. intros L H f c c' s s' Lf. apply H. lia. Qed.

Lemma task_sim_0 t t' : task_sim 0 t t'.
Proof. intros f c c' s s' L _ _ D. replace f with 0 in D by lia. contradiction D. reflexivity. Qed.

(* a step from bound m to S m carries a simulation at n over to another pair of tasks at the same n *)
Lemma task_sim_keep n t t' u u' :
  (forall m, m < n -> task_sim m t t' -> task_sim (S m) u u') -> task_sim n t t' -> task_sim n u u'.
Proof.
  intros K H. destruct n as [|n]; [apply task_sim_0|]. apply K; [lia|]. apply (task_sim_le (S n)); [lia|exact H].
Qed.

Lemma trivia_sim_le n m : m <= n -> trivia_sim n -> trivia_sim m.
Proof. intros L H f c c' s s' Lf. apply H. lia. Qed.

(* unfold one step of `run` on both sides *)
Lemma task_sim_S n t t' :
  (forall f c c' s s', f <= n -> P c c' -> same_core s' s ->
     covered (run g (S f) c t s) (settles (fun f => run g' (S f) c' t' s'))) ->
  task_sim (S n) t t'.
Proof.
  intros H [|f] c c' s s' L Hc Hs; [intros D; contradiction D; reflexivity|].
  apply (covered_iff _ _ _ (runs_settles g' c' t' s')). apply H; [lia|exact Hc|exact Hs].
Qed.

Lemma covered_run x c t s : covered x (runs g' c t s) -> covered x (settles (fun f => run g' f c t s)).
Proof. apply covered_iff. intros r. apply settles_yields. apply run_stable. Qed.

Lemma sim_opt n e e' : task_sim n (TEval e) (TEval e') -> task_sim (S n) (TEval (EOpt e)) (TEval (EOpt e')).
Proof.
  intros H. apply task_sim_S. intros f c c' s s' L Hc Hs. cbn [run].
  apply covered_call; [apply run_stable|apply H; assumption| |]; intros; apply covered_ret; auto with req.
Qed.

Lemma sim_and n e e' : task_sim n (TEval e) (TEval e') -> task_sim (S n) (TEval (EAnd e)) (TEval (EAnd e')).
Proof.
  intros H. apply task_sim_S. intros f c c' s s' L Hc Hs. cbn [run].
  apply covered_call; [apply run_stable|apply H; assumption| |]; intros; apply covered_ret; auto with req.
Qed.

Lemma sim_not n e e' : task_sim n (TEval e) (TEval e') -> task_sim (S n) (TEval (ENot e)) (TEval (ENot e')).
Proof.
  intros H. apply task_sim_S. intros f c c' s s' L Hc Hs. cbn [run].
  apply covered_call; [apply run_stable|apply H; auto| |]; intros; apply covered_ret; auto with req.
Qed.

Lemma sim_grp n tag e e' :
  task_sim n (TEval e) (TEval e') -> task_sim (S n) (TEval (EGrp e tag)) (TEval (EGrp e' tag)).
Proof.
  intros H. apply task_sim_S. intros f c c' s s' L Hc Hs. cbn [run].
  apply covered_call; [apply run_stable|apply H; auto with req| |]; intros; apply covered_ret; auto with req.
Qed.

Lemma sim_push n e e' : task_sim n (TEval e) (TEval e') -> task_sim (S n) (TEval (EPush e)) (TEval (EPush e')).
Proof.
  intros H. apply task_sim_S. intros f c c' s s' L Hc Hs. cbn [run].
  apply covered_call; [apply run_stable|apply H; assumption| |intros; apply covered_ret; auto with req].
  intros s1 s1' p R. apply covered_ret.
  destruct (same_core_inv _ _ Hs) as [Ep [Er _]]. destruct (same_core_inv _ _ R) as [Ep1 [_ [Ek1 _]]].
  rewrite Ep, Er, Ep1, Ek1. auto with req.
Qed.

Lemma sim_seq n es es' : trivia_sim n ->
  Forall2 (fun e e' => task_sim n (TEval e) (TEval e')) es es' -> task_sim (S n) (TSeq es) (TSeq es').
Proof.
  intros SK. induction 1 as [|e1 e1' es es' H1 HF IH]; apply task_sim_S; intros f c c' s s' L Hc Hs; cbn [run].
  - apply covered_ret. auto with req.
  - apply covered_call; [apply run_stable|apply H1; assumption| |intros; apply covered_ret; auto with req].
    intros s1 s1' p1 R1. destruct HF as [|e2 e2' es es' H2 HF]; [apply covered_ret; auto with req|].
    apply covered_call; [apply skip_stable|apply SK; assumption| |intros; apply covered_ret; auto with req].
    intros s2 s2' pw R2.
    apply covered_call; [apply run_stable|apply IH; auto| |]; intros; apply covered_ret; auto with req.
Qed.

Lemma sim_alt n es es' :
  Forall2 (fun e e' => task_sim n (TEval e) (TEval e')) es es' -> task_sim (S n) (TAlt es) (TAlt es').
Proof.
  induction 1 as [|e1 e1' es es' H1 HF IH]; apply task_sim_S; intros f c c' s s' L Hc Hs; cbn [run].
  - apply covered_ret. auto with req.
  - apply covered_call; [apply run_stable|apply H1; assumption|intros; apply covered_ret; auto with req|].
    intros t t'. apply covered_run. apply IH; auto with req.
Qed.

(* TStar calls itself under the same bound, so the induction is on the fuel of the run *)
Lemma sim_tstar n e e' : trivia_sim n -> task_sim n (TEval e) (TEval e') ->
  task_sim (S n) (TStar e) (TStar e').
Proof.
  intros SK H f. induction f as [|f IH]; intros c c' s s' L Hc Hs; [intros D; contradiction D; reflexivity|].
  apply (covered_iff _ _ _ (runs_settles g' c' _ s')). cbn [run].
  apply covered_call; [apply skip_stable|apply SK; [lia|assumption..]| |intros; apply covered_ret; auto with req].
  intros s2 s2' pw R2.
  apply covered_call; [apply run_stable|apply H; [lia|assumption..]| |intros; apply covered_ret; auto with req].
  intros s3 s3' p3 R3.
  apply covered_call; [apply run_stable|apply IH; [lia|assumption..]| |]; intros; apply covered_ret; auto with req.
Qed.

Lemma sim_star n e e' : trivia_sim n -> task_sim n (TEval e) (TEval e') ->
  task_sim (S n) (TEval (EStar e)) (TEval (EStar e')).
Proof.
  intros SK H. assert (HT := sim_tstar n e e' SK H).
  apply task_sim_S. intros f c c' s s' L Hc Hs. cbn [run].
  apply covered_call; [apply run_stable|apply H; assumption| |intros; apply covered_ret; auto with req].
  intros s1 s1' p1 R1.
  apply covered_call; [apply run_stable|apply HT; auto| |]; intros; apply covered_ret; auto with req.
Qed.

Lemma sim_step n e e' t t' :
  (forall f c s, run g (S f) c (TEval e) s = run g f c t s) ->
  (forall f c s, run g' (S f) c (TEval e') s = run g' f c t' s) ->
  task_sim n t t' -> task_sim (S n) (TEval e) (TEval e').
Proof.
  intros E E' H [|f] c c' s s' L Hc Hs D; [contradiction D; reflexivity|]. rewrite E in *.
  destruct (H f c c' s s' ltac:(lia) Hc Hs D) as [r' [[f' [H1 D1]] R]].
  exists r'. split; [|exact R]. exists (S f'). rewrite E'. split; assumption.
Qed.

End Two.

Lemma trivia_sim_refl n : trivia_sim g eq n.
Proof.
  intros f c c' s s' _ <- Hs D. apply (yields_req _ _ (fun f => skip_core_ctx g f c c s' s eq_refl Hs)).
  exists f. split; [reflexivity|exact D].
Qed.

Lemma sem_le_task e e' : sem_le e e' <-> forall n, task_sim g eq n (TEval e) (TEval e').
Proof.
  split.
  - intros H n f c c' s s' _ <- Hs D.
    destruct (H c s _ (ex_intro _ f (conj eq_refl D))) as [r1 [H1 C1]].
    destruct (runs_core c c (TEval e') s s' r1 eq_refl (same_core_sym _ _ Hs) H1) as [r' [H2 R2]].
    exists r'. split; [exact H2|]. eapply req_trans; [exact R2|].
    apply core_req; [eapply runs_nofuel; exact H1|exact D|exact C1].
  - intros H c s r [f [E D]]. subst r.
    destruct (H f f c c s s (le_n f) eq_refl (same_core_refl s) D) as [r' [Hr' R]].
    exists r'. split; [exact Hr'|apply req_core; exact R].
Qed.

Lemma sem_le_cong (K : expr -> expr) :
  (forall n e e', task_sim g eq n (TEval e) (TEval e') -> task_sim g eq (S n) (TEval (K e)) (TEval (K e'))) ->
  forall e e', sem_le e e' -> sem_le (K e) (K e').
Proof.
  intros HK e e'. rewrite !sem_le_task. intros H [|n]; [apply task_sim_0|apply HK, H].
Qed.

Lemma cong_opt_le e e' : sem_le e e' -> sem_le (EOpt e) (EOpt e').
Proof. apply (sem_le_cong EOpt). apply sim_opt. Qed.
Lemma cong_and_le e e' : sem_le e e' -> sem_le (EAnd e) (EAnd e').
Proof. apply (sem_le_cong EAnd). apply sim_and. Qed.
Lemma cong_not_le e e' : sem_le e e' -> sem_le (ENot e) (ENot e').
Proof. apply (sem_le_cong ENot). apply sim_not. intros c c' <-. reflexivity. Qed.
Lemma cong_grp_le tag e e' : sem_le e e' -> sem_le (EGrp e tag) (EGrp e' tag).
Proof. apply (sem_le_cong (fun x => EGrp x tag)). intros n. apply sim_grp. Qed.
Lemma cong_push_le e e' : sem_le e e' -> sem_le (EPush e) (EPush e').
Proof. apply (sem_le_cong EPush). apply sim_push. Qed.
Lemma cong_star_le e e' : sem_le e e' -> sem_le (EStar e) (EStar e').
Proof. apply (sem_le_cong EStar). intros n a b. apply sim_star, trivia_sim_refl. Qed.

Lemma Forall2_sem_le n es es' : Forall2 sem_le es es' ->
  Forall2 (fun e e' => task_sim g eq n (TEval e) (TEval e')) es es'.
Proof. induction 1 as [|a b l l' H _ IH]; constructor; [apply sem_le_task, H|exact IH]. Qed.

Lemma cong_seq_le es es' : Forall2 sem_le es es' -> sem_le (ESeq es) (ESeq es').
Proof.
  intros HF. apply sem_le_task. intros [|n]; [apply task_sim_0|].
  apply (sim_step g eq n (ESeq es) (ESeq es') (TSeq es) (TSeq es')); try reflexivity.
  apply (task_sim_le g eq (S n)); [lia|]. apply sim_seq; [apply trivia_sim_refl|apply Forall2_sem_le, HF].
Qed.

Lemma cong_alt_le es es' : Forall2 sem_le es es' -> sem_le (EAlt es) (EAlt es').
Proof.
  intros HF. apply sem_le_task. intros [|n]; [apply task_sim_0|].
  apply (sim_step g eq n (EAlt es) (EAlt es') (TAlt es) (TAlt es')); try reflexivity.
  apply (task_sim_le g eq (S n)); [lia|]. apply sim_alt, Forall2_sem_le, HF.
Qed.

Lemma sem_eq_cong (K : expr -> expr) : (forall e e', sem_le e e' -> sem_le (K e) (K e')) ->
  forall e e', sem_eq e e' -> sem_eq (K e) (K e').
Proof. intros H e e' [A B]. split; apply H; assumption. Qed.

Theorem cong_opt : forall e e', sem_eq e e' -> sem_eq (EOpt e) (EOpt e').
Proof. exact (sem_eq_cong EOpt cong_opt_le). Qed.
Theorem cong_and : forall e e', sem_eq e e' -> sem_eq (EAnd e) (EAnd e').
Proof. exact (sem_eq_cong EAnd cong_and_le). Qed.
Theorem cong_not : forall e e', sem_eq e e' -> sem_eq (ENot e) (ENot e').
Proof. exact (sem_eq_cong ENot cong_not_le). Qed.
Theorem cong_grp : forall tag e e', sem_eq e e' -> sem_eq (EGrp e tag) (EGrp e' tag).
Proof. intros tag. exact (sem_eq_cong (fun e => EGrp e tag) (cong_grp_le tag)). Qed.
Theorem cong_push : forall e e', sem_eq e e' -> sem_eq (EPush e) (EPush e').
Proof. exact (sem_eq_cong EPush cong_push_le). Qed.
Theorem cong_star : forall e e', sem_eq e e' -> sem_eq (EStar e) (EStar e').
Proof. exact (sem_eq_cong EStar cong_star_le). Qed.

Lemma Forall2_eq_le es es' : Forall2 sem_eq es es' -> Forall2 sem_le es es'.
Proof. induction 1 as [|a b l l' [A B] _ IH]; constructor; assumption. Qed.
Lemma Forall2_eq_ge es es' : Forall2 sem_eq es es' -> Forall2 sem_le es' es.
Proof. induction 1 as [|a b l l' [A B] _ IH]; constructor; assumption. Qed.

Lemma sem_eq_cong_list (K : list expr -> expr) :
  (forall es es', Forall2 sem_le es es' -> sem_le (K es) (K es')) ->
  forall es es', Forall2 sem_eq es es' -> sem_eq (K es) (K es').
Proof. intros H es es' HF. split; apply H; [apply Forall2_eq_le|apply Forall2_eq_ge]; exact HF. Qed.

Theorem cong_seq : forall es es', Forall2 sem_eq es es' -> sem_eq (ESeq es) (ESeq es').
Proof. exact (sem_eq_cong_list ESeq cong_seq_le). Qed.
Theorem cong_alt : forall es es', Forall2 sem_eq es es' -> sem_eq (EAlt es) (EAlt es').
Proof. exact (sem_eq_cong_list EAlt cong_alt_le). Qed.

Lemma sem_eq_via a b a' b' :
  (forall c s r, evals g c a s r <-> evals g c a' s r) ->
  (forall c s r, evals g c b s r <-> evals g c b' s r) ->
  sem_eq a' b' -> sem_eq a b.
Proof.
  intros Ha Hb H. apply (sem_eq_trans a a' b); [apply sem_eq_of_iff; exact Ha|].
  apply (sem_eq_trans a' b' b); [exact H|]. apply sem_eq_sym. apply sem_eq_of_iff. exact Hb.
Qed.

Theorem cong_plus : forall e e', sem_eq e e' -> sem_eq (EPlus e) (EPlus e').
Proof.
  intros e e' H. eapply sem_eq_via; [intros; apply plus_unrolled|intros; apply plus_unrolled|].
  apply cong_seq. constructor; [exact H|]. constructor; [apply cong_star; exact H|constructor].
Qed.
Theorem cong_repn : forall n e e', sem_eq e e' -> sem_eq (ERepN e n) (ERepN e' n).
Proof.
  intros n e e' H. eapply sem_eq_via; [intros; apply repn_unrolled|intros; apply repn_unrolled|].
  apply cong_seq. apply Forall2_repeat. exact H.
Qed.
Theorem cong_repmin : forall n e e', sem_eq e e' -> sem_eq (ERepMin e n) (ERepMin e' n).
Proof.
  intros n e e' H. eapply sem_eq_via; [intros; apply repmin_unrolled|intros; apply repmin_unrolled|].
  apply cong_seq. apply Forall2_app; [apply Forall2_repeat; exact H|].
  constructor; [apply cong_star; exact H|constructor].
Qed.
Theorem cong_repmax : forall n e e', sem_eq e e' -> sem_eq (ERepMax e n) (ERepMax e' n).
Proof.
  intros n e e' H. eapply sem_eq_via; [intros; apply repmax_unrolled|intros; apply repmax_unrolled|].
  apply cong_seq. apply Forall2_repeat. apply cong_opt. exact H.
Qed.
Theorem cong_repminmax : forall m n e e', sem_eq e e' -> sem_eq (ERepMinMax e m n) (ERepMinMax e' m n).
Proof.
  intros m n e e' H.
  eapply sem_eq_via; [intros; apply repminmax_unrolled|intros; apply repminmax_unrolled|].
  apply cong_seq. apply Forall2_app; apply Forall2_repeat; [exact H|apply cong_opt; exact H].
Qed.

Lemma evals_grp_none c e s r : evals g c (EGrp e None) s r <-> evals g c e s r.
Proof.
  apply runs_step. intros f. cbn [run push_tag pop_tag]. destruct (run g f c (TEval e) s); reflexivity.
Qed.

Theorem group_id : forall e, sem_eq (EGrp e None) e.
Proof. intros e. apply sem_eq_of_iff. intros c s r. apply evals_grp_none. Qed.

Lemma evals_grp_alt c es s r : evals g c (EGrp (EAlt es) None) s r <-> runs g c (TAlt es) s r.
Proof. rewrite evals_grp_none. apply alt_is_its_task. Qed.

Lemma runs_alt_one c e s r : runs g c (TAlt [e]) s r <-> evals g c e s r.
Proof.
  rewrite runs_alt_cons. split.
  - intros [x [Hx K]]. destruct x; try (subst r; exact Hx). apply runs_alt_nil in K. subst r. exact Hx.
  - intros H. exists r. split; [exact H|]. destruct r; try reflexivity. apply runs_alt_nil. reflexivity.
Qed.

Lemma evals_alt2 c a e s r :
  evals g c (EGrp (EAlt [a; e]) None) s r <->
  exists x, evals g c a s x /\ match x with Fail t => evals g c e (set_trk s t) r | w => r = w end.
Proof.
  rewrite evals_grp_alt, runs_alt_cons.
  split; intros [x [Hx K]]; exists x; (split; [exact Hx|]); destruct x; try exact K; apply runs_alt_one; exact K.
Qed.

Lemma evals_retrk c e s t r : evals g c e s r ->
  exists r', evals g c e (set_trk s t) r' /\ req r' r.
Proof. intros H. apply (runs_core c c (TEval e) s (set_trk s t) r eq_refl (same_core_set_trk_r s t) H). Qed.

(* A first alternative a is absorbed by the second, e, when it fails wherever it does not end as e
   does: after the failure e runs from another tracker only.  What the choice does follows from
   what e does by determinism, given that e ends wherever a does. *)
Lemma alt2_absorbs (Q : st -> Prop) a e :
  (forall c s r, Q s -> evals g c e s r ->
     exists x, evals g c a s x /\ match x with Fail _ => True | w => core r = core w end) ->
  (forall c s x, Q s -> evals g c a s x -> exists r, evals g c e s r) ->
  (forall c s r, Q s -> evals g c (EGrp (EAlt [a; e]) None) s r ->
     exists r', evals g c e s r' /\ core r' = core r) /\
  (forall c s r, Q s -> evals g c e s r ->
     exists r', evals g c (EGrp (EAlt [a; e]) None) s r' /\ core r' = core r).
Proof.
  intros C1 C2.
  assert (B : forall c s r, Q s -> evals g c e s r ->
    exists r', evals g c (EGrp (EAlt [a; e]) None) s r' /\ core r' = core r).
  { intros c s r Hs Hr. destruct (C1 c s r Hs Hr) as [x [Hx M]].
    destruct x as [s1 p1|t| |].
    - exists (Ok s1 p1). split; [|symmetry; exact M].
      apply evals_alt2. exists (Ok s1 p1). split; [exact Hx|reflexivity].
    - destruct (evals_retrk c e s t r Hr) as [r' [Hr' R]]. exists r'. split; [|apply req_core; exact R].
      apply evals_alt2. exists (Fail t). split; assumption.
    - exists Err. split; [|symmetry; exact M].
      apply evals_alt2. exists Err. split; [exact Hx|reflexivity].
    - exfalso. exact (runs_nofuel _ _ _ _ Hx eq_refl). }
  split; [|exact B].
  intros c s r Hs Hev. assert (Hx := Hev). apply evals_alt2 in Hx. destruct Hx as [x [Hx _]].
  destruct (C2 c s x Hs Hx) as [r0 Hr0]. exists r0. split; [exact Hr0|].
  destruct (B c s r0 Hs Hr0) as [r' [Hr' E]]. rewrite (runs_det _ _ _ _ _ _ Hev Hr'). symmetry. exact E.
Qed.

Theorem dup_choice : forall e, sem_eq (EGrp (EAlt [e; e]) None) e.
Proof.
  intros e. destruct (alt2_absorbs (fun _ => True) e e) as [A B].
  - intros c s r _ H. exists r. split; [exact H|]. destruct r; reflexivity || exact I.
  - intros c s x _ H. exists x. exact H.
  - split; intros c s r; [apply A|apply B]; exact I.
Qed.

Lemma runs_seq_cons_congr c e1 l l' : l <> [] -> l' <> [] ->
  (forall s r, runs g c (TSeq l) s r <-> runs g c (TSeq l') s r) ->
  forall s r, runs g c (TSeq (e1 :: l)) s r <-> runs g c (TSeq (e1 :: l')) s r.
Proof.
  intros N1 N2 H s r. destruct l as [|e2 l]; [congruence|]. destruct l' as [|e2' l']; [congruence|].
  rewrite !runs_seq_cons.
  split; intros [x [Hx K]]; exists x; (split; [exact Hx|]);
    destruct x; try exact K; destruct K as [y [Hy K]]; exists y; (split; [exact Hy|]);
    destruct y; try exact K; destruct K as [z [Hz ->]]; exists z;
    (split; [apply H; exact Hz|reflexivity]).
Qed.

Lemma runs_alt_cons_congr c e1 l l' :
  (forall s r, runs g c (TAlt l) s r <-> runs g c (TAlt l') s r) ->
  forall s r, runs g c (TAlt (e1 :: l)) s r <-> runs g c (TAlt (e1 :: l')) s r.
Proof.
  intros H s r. rewrite !runs_alt_cons.
  split; intros [x [Hx K]]; exists x; (split; [exact Hx|]);
    destruct x; try exact K; apply H; exact K.
Qed.

Lemma seq_assoc_runs : forall a b, b <> [] -> forall c s r,
  runs g c (TSeq (a ++ [EGrp (ESeq b) None])) s r <-> runs g c (TSeq (a ++ b)) s r.
Proof.
  intros a b Hb c. induction a as [|a1 a IH]; intros s r.
  - cbn [app]. rewrite runs_seq_one, evals_grp_none. apply seq_is_its_task.
  - cbn [app]. apply runs_seq_cons_congr.
    + intros E. apply app_eq_nil in E. destruct E as [_ E]. discriminate.
    + intros E. apply app_eq_nil in E. destruct E as [_ E]. contradiction.
    + exact IH.
Qed.

(* `x ~ ()` skips trivia after x and `x` alone does not: hence b <> [] *)
Theorem seq_assoc_group : forall a b, b <> [] ->
  sem_eq (ESeq (a ++ [EGrp (ESeq b) None])) (ESeq (a ++ b)).
Proof.
  intros a b Hb. apply sem_eq_of_iff. intros c s r.
  rewrite !seq_is_its_task. apply seq_assoc_runs. exact Hb.
Qed.

Lemma alt_assoc_runs : forall a b c s r,
  runs g c (TAlt (a ++ [EGrp (EAlt b) None])) s r <-> runs g c (TAlt (a ++ b)) s r.
Proof.
  intros a b c. induction a as [|a1 a IH]; intros s r.
  - cbn [app]. rewrite runs_alt_one. apply evals_grp_alt.
  - cbn [app]. apply runs_alt_cons_congr. exact IH.
Qed.

Theorem alt_assoc_group : forall a b,
  sem_eq (EAlt (a ++ [EGrp (EAlt b) None])) (EAlt (a ++ b)).
Proof.
  intros a b. apply sem_eq_of_iff. intros c s r.
  rewrite !alt_is_its_task. apply alt_assoc_runs.
Qed.

Definition never (lit : text) : Prop := forall rest, strip_prefix lit rest = None.

(* no literal satisfies `never`: it matches itself *)
Lemma never_false lit : ~ never lit.
Proof.
  intros H. specialize (H lit). assert (A := strip_prefix_app_iff lit []).
  rewrite app_nil_r in A. congruence.
Qed.

Theorem never_choice : forall e lit, never lit ->
  sem_eq (EGrp (EAlt [ESeq [e; EStr lit]; e]) None) e.
Proof. intros e lit H. exfalso. exact (never_false lit H). Qed.

Definition never_in (lit input : text) : Prop :=
  forall k, strip_prefix lit (skipn k input) = None.

Definition on_input (input : text) (s : st) : Prop := exists k, s_rest s = skipn k input.

Definition sem_le_on (input : text) (e1 e2 : expr) : Prop :=
  forall c s r, on_input input s -> evals g c e1 s r ->
    exists r', evals g c e2 s r' /\ core r' = core r.
Definition sem_eq_on (input : text) (e1 e2 : expr) : Prop :=
  sem_le_on input e1 e2 /\ sem_le_on input e2 e1.

(* implicit trivia skipping terminates successfully on the suffixes of the input; without
   this the two never-matching rewrites are unsound: a diverging or erroring WHITESPACE rule makes
   `e ~ "lit"` diverge / raise where `e` alone succeeds *)
Definition skip_total_on (input : text) : Prop :=
  forall c s, on_input input s -> exists s2 pw, skips c s (Ok s2 pw).

Lemma skip_total_no_trivia input : has_ws g = false -> has_cm g = false -> skip_total_on input.
Proof.
  intros H1 H2 c s _. exists s, []. exists 0. split; [|discriminate].
  apply no_trivia_rules; assumption.
Qed.

Section OnInput.
Variable input : text.
Notation on := (on_input input).

(* a successful run ends on a suffix of the input *)
Definition lands (r : res) : Prop := match r with Ok s' _ => on s' | _ => True end.

Lemma lands_call x (k1 : st -> list pair -> res) (k2 : trk -> res) :
  lands x -> (forall s p, on s -> lands (k1 s p)) -> (forall t, lands (k2 t)) ->
  lands (match x with Ok s p => k1 s p | Fail t => k2 t | Err => Err | Fuel => Fuel end).
Proof. intros Hx H1 H2. destruct x; try exact I; [apply H1; exact Hx|apply H2]. Qed.

Definition suffix_at (f : nat) : Prop := forall c t s, on s -> lands (run g f c t s).

Lemma skip_suffix f : suffix_at f -> forall c s, on s ->
  lands (skip_with g (fun c' e' => run g f c' (TEval e')) c s).
Proof.
  intros IH c s Hs. apply skip_with_case; [exact Hs|]. intros e _. apply IH. exact Hs.
Qed.

Lemma on_push_tag tag s : on s -> on (push_tag tag s).
Proof. destruct tag; intros H; exact H. Qed.
Lemma on_pop_tag tag s : on s -> on (pop_tag tag s).
Proof. destruct tag; intros H; exact H. Qed.
Local Hint Resolve on_push_tag on_pop_tag : core.

Lemma suffix_all : forall f, suffix_at f.
Proof.
  induction f as [|f IH]; intros c t s Hs; [exact I|].
  assert (IHk := skip_suffix f IH). unfold suffix_at in IH.
  destruct t as [e|es|es|e].
  - destruct (terminal e) eqn:T.
    { (* a terminal leaves a suffix of what it found *)
      pose proof (run_terminal g e T f c s) as R.
      destruct (run g (S f) c (TEval e) s) as [s' ps|t| |]; try exact I.
      destruct R as [_ [m [(_ & Er & _) _]]]. destruct Hs as [k Ek]. exists (k + m).
      rewrite Er, Ek. apply skipn_skipn_add. }
    destruct e; try discriminate T; cbn [run]; try (apply IH; exact Hs).
    + (* ERef *) destruct (lookup g n) as [r|]; [|exact I].
      apply lands_call; cbn [lands]; auto. intros s1 kids H1. unfold finish_rule.
      destruct (r_silent r); [|destruct (visible c r)]; cbn [lands]; auto.
    + (* EOpt *) apply lands_call; cbn [lands]; auto.
    + (* EStar *) apply lands_call; cbn [lands]; auto. intros s1 p1 H1.
      apply lands_call; cbn [lands]; auto.
    + (* EAnd *) apply lands_call; cbn [lands]; auto.
    + (* ENot *) apply lands_call; cbn [lands]; auto.
    + (* EGrp *) apply lands_call; cbn [lands]; auto.
    + (* EPush *) apply lands_call; cbn [lands]; auto.
  - cbn [run]. destruct es as [|e1 es']; [exact Hs|].
    apply lands_call; cbn [lands]; auto. intros s1 p1 H1.
    destruct es' as [|e2 es'']; [exact H1|].
    apply lands_call; cbn [lands]; auto. intros s2 pw H2.
    apply lands_call; cbn [lands]; auto.
  - cbn [run]. destruct es as [|e1 es']; [exact I|]. apply lands_call; cbn [lands]; auto.
  - cbn [run]. apply lands_call; cbn [lands]; auto. intros s2 pw H2.
    apply lands_call; cbn [lands]; auto. intros s3 p3 H3.
    apply lands_call; cbn [lands]; auto.
Qed.

Lemma runs_on c t s s' ps : on s -> runs g c t s (Ok s' ps) -> on s'.
Proof. intros Hs [f [H _]]. assert (L := suffix_all f c t s Hs). rewrite H in L. exact L. Qed.

Lemma skips_on c s s' ps : on s -> skips c s (Ok s' ps) -> on s'.
Proof.
  intros Hs [f [H _]]. assert (L := skip_suffix f (suffix_all f) c s Hs). rewrite H in L. exact L.
Qed.

Lemma evals_str_never c lit s : never_in lit input -> on s ->
  evals g c (EStr lit) s (Fail (record c false (c_rule c) s)).
Proof.
  intros Hn [k E]. exists 1. split; [|discriminate]. cbn [run]. rewrite E, Hn. reflexivity.
Qed.

(* on this input `e1 ~ "lit"` fails where e1 succeeds, and otherwise ends as e1 does *)
Lemma seq_then_never c e1 lit s x : never_in lit input -> skip_total_on input ->
  on s -> evals g c e1 s x ->
  exists t, evals g c (ESeq [e1; EStr lit]) s (match x with Ok _ _ => Fail t | w => w end).
Proof.
  intros Hn Hsk Hs Hev. destruct x as [s1 p1|t0| |].
  - assert (H1 := runs_on c _ s s1 p1 Hs Hev). destruct (Hsk c s1 H1) as [s2 [pw Hy]].
    assert (H2 := skips_on c s1 s2 pw H1 Hy).
    exists (record c false (c_rule c) s2). apply seq_is_its_task. apply runs_seq_cons.
    exists (Ok s1 p1). split; [exact Hev|]. exists (Ok s2 pw). split; [exact Hy|].
    exists (Fail (record c false (c_rule c) s2)). split; [|reflexivity].
    apply runs_seq_one. apply evals_str_never; assumption.
  - exists t0. apply seq_is_its_task. apply runs_seq_cons. exists (Fail t0). split; [exact Hev|reflexivity].
  - exists (s_trk s). apply seq_is_its_task. apply runs_seq_cons. exists Err. split; [exact Hev|reflexivity].
  - exfalso. exact (runs_nofuel _ _ _ _ Hev eq_refl).
Qed.

Lemma seq_ends_first c e1 e2 es s r :
  evals g c (ESeq (e1 :: e2 :: es)) s r -> exists x, evals g c e1 s x.
Proof.
  intros H. apply seq_is_its_task in H. apply runs_seq_cons in H. destruct H as [x [Hx _]].
  exists x. exact Hx.
Qed.

Theorem never_choice_on : forall e lit, never_in lit input -> skip_total_on input ->
  sem_eq_on input (EGrp (EAlt [ESeq [e; EStr lit]; e]) None) e.
Proof.
  intros e lit Hn Hsk. apply (alt2_absorbs on).
  - intros c s r Hs Hev. destruct (seq_then_never c e lit s r Hn Hsk Hs Hev) as [t Ht].
    eexists. split; [exact Ht|]. destruct r; reflexivity || exact I.
  - intros c s x _. apply seq_ends_first.
Qed.

(* what ENot e makes of the result x of e *)
Definition Fnot (e : expr) (c : ctx) (s : st) (x : res) : res :=
  match x with
  | Ok s1 _ =>
      Fail (record (neg_ctx c) true (match e with ERef n _ => n | _ => c_rule c end)
              (set_trk s (s_trk s1)))
  | Fail t => Ok (set_trk s t) []
  | Err => Err
  | Fuel => Fuel
  end.

Lemma evals_not c e s r :
  evals g c (ENot e) s r <-> exists x, evals g (neg_ctx c) e s x /\ r = Fnot e c s x.
Proof.
  unfold evals at 1. rewrite runs_settles. cbn [run]. revert r.
  apply settles_call; [apply run_stable|intros; apply settles_ret; discriminate..|reflexivity].
Qed.

Theorem negnever_choice_on : forall e lit, never_in lit input -> skip_total_on input ->
  sem_eq_on input (EGrp (EAlt [ESeq [ENot e; EStr lit]; e]) None) e.
Proof.
  intros e lit Hn Hsk. apply (alt2_absorbs on).
  - intros c s r Hs Hev.
    destruct (runs_core c (neg_ctx c) (TEval e) s s r eq_refl (same_core_refl _) Hev) as [r1 [Hr1 R]].
    assert (Hn1 : evals g c (ENot e) s (Fnot e c s r1)).
    { apply evals_not. exists r1. split; [exact Hr1|reflexivity]. }
    destruct (seq_then_never c (ENot e) lit s _ Hn Hsk Hs Hn1) as [t Ht].
    eexists. split; [exact Ht|]. destruct r, r1; try contradiction R; reflexivity || exact I.
  - intros c s x _ Hx. apply seq_ends_first in Hx. destruct Hx as [x1 Hx1].
    apply evals_not in Hx1. destruct Hx1 as [x0 [Hx0 _]].
    destruct (runs_core (neg_ctx c) c (TEval e) s s x0 eq_refl (same_core_refl _) Hx0) as [r [Hr _]].
    exists r. exact Hr.
Qed.

End OnInput.

End Equiv.

Definition noref (n : N) (x : expr) : bool :=
  match x with ERef m _ => negb (N.eqb m n) | _ => true end.

Definition extend (g : grammar) (n : N) (e : expr) : grammar :=
  g ++ [{| r_name := n; r_silent := true; r_kind := KNormal; r_body := e |}].

Section Extract.
Variable g : grammar.
Variable n : N.
Variable e : expr.
Hypothesis Hfresh : lookup g n = None.
Hypothesis Hntriv : is_trivia_name n = false.
Hypothesis Hg : all_grammar (noref n) g = true.
Hypothesis He : all_sub (noref n) e = true.

Notation g' := (extend g n e).
Notation rl := {| r_name := n; r_silent := true; r_kind := KNormal; r_body := e |}.
Notation qn := (fun m : N => negb (N.eqb m n)).

Lemma lookup_extend_other m : negb (N.eqb m n) = true -> lookup g' m = lookup g m.
Proof.
  intros H. unfold extend. rewrite lookup_app. destruct (lookup g m); [reflexivity|].
  cbn. rewrite N.eqb_sym. destruct (N.eqb m n); [discriminate|reflexivity].
Qed.

Lemma lookup_extend_new : lookup g' n = Some rl.
Proof. unfold extend. rewrite lookup_app, Hfresh. cbn. rewrite N.eqb_refl. reflexivity. Qed.

Lemma ntriv : negb (N.eqb WS_ID n) = true /\ negb (N.eqb CM_ID n) = true.
Proof.
  unfold is_trivia_name in Hntriv. apply orb_false_elim in Hntriv. destruct Hntriv as [A B].
  rewrite (N.eqb_sym WS_ID n), (N.eqb_sym CM_ID n), A, B. split; reflexivity.
Qed.

Lemma skip_expr_extend : skip_expr g' = skip_expr g.
Proof.
  destruct ntriv as [A B]. unfold skip_expr, has_ws, has_cm.
  rewrite (lookup_extend_other WS_ID A), (lookup_extend_other CM_ID B). reflexivity.
Qed.

Lemma skip_expr_noref e0 : skip_expr g = Some e0 -> all_sub (noref n) e0 = true.
Proof.
  destruct ntriv as [A B]. apply skip_expr_all; intros; assumption || reflexivity.
Qed.

Lemma extend_sim : forall f c1 c2 t s1 s2, c_atom c1 = c_atom c2 -> same_core s1 s2 ->
  all_task (noref n) t = true -> req (run g' f c1 t s1) (run g f c2 t s2).
Proof.
  intros f c1 c2 t s1 s2 Hc Hs Ht.
  apply (sim_all g' g qn); try assumption.
  - intros m Hm. apply lookup_extend_other. exact Hm.
  - apply skip_expr_extend.
  - apply skip_expr_noref.
Qed.

Lemma extract_step f c s :
  run g' (S f) c (TEval (ERef n None)) s = run g' f (rule_ctx c rl) (TEval e) s.
Proof.
  cbn [run]. rewrite lookup_extend_new. cbn [r_body push_tag].
  destruct (run g' f (rule_ctx c rl) (TEval e) s); reflexivity.
Qed.

Lemma rule_ctx_atom c : c_atom (rule_ctx c rl) = c_atom c.
Proof. unfold rule_ctx, body_atom. cbn. rewrite Hntriv. reflexivity. Qed.

Theorem extract_silent_a : forall t, all_task (noref n) t = true ->
  forall f c s, core (run g' f c t s) = core (run g f c t s).
Proof.
  intros t Ht f c s. apply req_core. apply extend_sim; [reflexivity|apply same_core_refl|exact Ht].
Qed.

Lemma evals_extracted c s r : evals g' c (ERef n None) s r <-> evals g' (rule_ctx c rl) e s r.
Proof. apply runs_tail_call. intros f. apply extract_step. Qed.

Lemma extracted_sim f c s : req (run g' f (rule_ctx c rl) (TEval e) s) (run g f c (TEval e) s).
Proof. apply extend_sim; [apply rule_ctx_atom|apply same_core_refl|exact He]. Qed.

Theorem extract_silent_b1 : forall c s r, evals g c e s r ->
  exists r', evals g' c (ERef n None) s r' /\ core r' = core r.
Proof.
  intros c s r H. destruct (yields_req _ _ (fun f => extracted_sim f c s) r H) as [r' [H' R]].
  exists r'. split; [apply evals_extracted; exact H'|apply req_core; exact R].
Qed.

Theorem extract_silent_b2 : forall c s r, evals g' c (ERef n None) s r ->
  exists r', evals g c e s r' /\ core r' = core r.
Proof.
  intros c s r H. apply evals_extracted in H.
  destruct (yields_req _ _ (fun f => req_sym _ _ (extracted_sim f c s)) r H) as [r' [H' R]].
  exists r'. split; [exact H'|apply req_core; exact R].
Qed.

End Extract.

Theorem extract_silent : forall g n e,
  lookup g n = None -> is_trivia_name n = false ->
  all_grammar (fun x => match x with ERef m _ => negb (N.eqb m n) | _ => true end) g = true ->
  all_sub (fun x => match x with ERef m _ => negb (N.eqb m n) | _ => true end) e = true ->
  let g' := g ++ [{| r_name := n; r_silent := true; r_kind := KNormal; r_body := e |}] in
  (forall t, all_task (fun x => match x with ERef m _ => negb (N.eqb m n) | _ => true end) t = true ->
     forall f c s, core (run g' f c t s) = core (run g f c t s)) /\
  (forall c s r, evals g c e s r ->
     exists r', evals g' c (ERef n None) s r' /\ core r' = core r) /\
  (forall c s r, evals g' c (ERef n None) s r ->
     exists r', evals g c e s r' /\ core r' = core r).
Proof.
  intros g n e H1 H2 H3 H4 g'. split; [|split].
  - intros t Ht f c s. apply extract_silent_a; assumption.
  - apply extract_silent_b1; assumption.
  - apply extract_silent_b2; assumption.
Qed.

Print Assumptions trk_irrelevant.
Print Assumptions trk_irrelevant4.
Print Assumptions ctx_irrelevant.
Print Assumptions group_id.
Print Assumptions dup_choice.
Print Assumptions never_choice.
Print Assumptions never_choice_on.
Print Assumptions negnever_choice_on.
Print Assumptions seq_assoc_group.
Print Assumptions alt_assoc_group.
Print Assumptions extract_silent.
Print Assumptions cong_opt.
Print Assumptions cong_star.
Print Assumptions cong_plus.
Print Assumptions cong_repn.
Print Assumptions cong_repmin.
Print Assumptions cong_repmax.
Print Assumptions cong_repminmax.
Print Assumptions cong_and.
Print Assumptions cong_not.
Print Assumptions cong_grp.
Print Assumptions cong_push.
Print Assumptions cong_seq.
Print Assumptions cong_alt.
