(* SnapStackProof.v — the delta-encoded snapshot stack refines full-copy snapshots: every operation
   is a simulation for the relation `refines`, and `refines s r` says as much as `SInv s /\ abs s = r`. *)
From Coq Require Import List ZArith Lia.
Import ListNotations.
From PP Require Import SnapStack.

Section S.
Variable A : Type.
Notation bottom := (bottom A).
Notation recover := (recover A).
Notation Inv := (Inv A).
Notation abs := (abs A).
Notation SInv := (SInv A).
Notation spush := (spush A). Notation spop := (spop A). Notation ssnap := (ssnap A).
Notation srestore := (srestore A). Notation sdrop := (sdrop A). Notation sclear := (sclear A).
Notation rpush := (rpush A). Notation rpop := (rpop A). Notation rsnap := (rsnap A).
Notation rrestore := (rrestore A). Notation rdrop := (rdrop A). Notation rclear := (rclear A).

Lemma firstn_app_exact (l1 l2 : list A) n : n = length l1 -> firstn n (l1 ++ l2) = l1.
Proof. intros ->. rewrite firstn_app, Nat.sub_diag, firstn_all. cbn. apply app_nil_r. Qed.

Lemma skipn_app_exact (l1 l2 : list A) n : n = length l1 -> skipn n (l1 ++ l2) = l2.
Proof. intros ->. rewrite skipn_app, Nat.sub_diag, skipn_all. reflexivity. Qed.

Lemma firstn_app_le (l1 l2 : list A) n : n <= length l1 -> firstn n (l1 ++ l2) = firstn n l1.
Proof. intros H. rewrite firstn_app. replace (n - length l1) with 0 by lia. apply app_nil_r. Qed.

Lemma bottom_length k l : k <= length l -> length (bottom k l) = k.
Proof. intros H. unfold bottom. rewrite skipn_length. lia. Qed.

Lemma bottom_all l : bottom (length l) l = l.
Proof. unfold bottom. rewrite Nat.sub_diag. reflexivity. Qed.

Lemma bottom_app_ge k a b : length b <= k -> bottom k (a ++ b) = bottom (k - length b) a ++ b.
Proof.
  intros H. unfold bottom. rewrite skipn_app, app_length.
  replace (length a + length b - k - length a) with 0 by lia.
  replace (length a + length b - k) with (length a - (k - length b)) by lia. reflexivity.
Qed.

Lemma bottom_app k a b : k <= length b -> bottom k (a ++ b) = bottom k b.
Proof.
  intros H. unfold bottom. rewrite app_length.
  replace (length a + length b - k) with (length a + (length b - k)) by lia.
  rewrite skipn_app, skipn_all2 by lia.
  replace (length a + (length b - k) - length a) with (length b - k) by lia. reflexivity.
Qed.

Lemma bottom_cons k x l : k <= length l -> bottom k (x :: l) = bottom k l.
Proof. exact (bottom_app k [x] l). Qed.

Lemma bottom_bottom j k l : j <= k -> k <= length l -> bottom j (bottom k l) = bottom j l.
Proof.
  intros Hj Hk. rewrite <- (bottom_app j (firstn (length l - k) l)) by (rewrite bottom_length; lia).
  unfold bottom at 2. rewrite firstn_skipn. reflexivity.
Qed.

Lemma bottom_rev k (l : list A) : k <= length l -> bottom k (rev l) = rev (firstn k l).
Proof.
  intros H. unfold bottom. rewrite skipn_rev, rev_length.
  replace (length l - (length l - k)) with k by lia. reflexivity.
Qed.

Lemma bottom_copy_le k a rc it : k <= rc -> rc <= length it ->
  bottom k (rev a ++ bottom rc it) = bottom k it.
Proof. intros H1 H2. rewrite bottom_app by (rewrite bottom_length; lia). apply bottom_bottom; lia. Qed.

Lemma bottom_copy_ge k a rc it : rc <= k -> k - rc <= length a -> rc <= length it ->
  bottom k (rev a ++ bottom rc it) = rev (firstn (k - rc) a) ++ bottom rc it.
Proof.
  intros H1 H2 H3. rewrite bottom_app_ge; rewrite bottom_length by lia; [|lia].
  rewrite bottom_rev by lia. reflexivity.
Qed.

Lemma recover_bottom : forall ls it it' pp,
  (forall k, (match ls with [] => True | (_, rc) :: _ => k <= rc end) -> bottom k it = bottom k it') ->
  recover it pp ls = recover it' pp ls.
Proof.
  destruct ls as [|[ic rc] ls]; intros it it' pp H; [reflexivity|].
  cbn [recover]. rewrite (H rc) by lia. reflexivity.
Qed.

(* With popped = a ++ q and |a| = ic - rc, the entry (ic, rc) stands for the saved copy
   rev a ++ bottom rc it: what was popped below the snapshot's height, on top of the items
   untouched since. Below it the state is (that copy, q, ls). *)
Inductive refines : sstack A -> rstack A -> Prop :=
| ref_nil it : refines {| items := it; popped := []; lens := [] |} {| cur := it; saved := [] |}
| ref_top it a q ic rc ls c sv :
    length a = ic - rc -> rc <= ic -> rc <= length it -> rev a ++ bottom rc it = c ->
    refines {| items := c; popped := q; lens := ls |} {| cur := c; saved := sv |} ->
    refines {| items := it; popped := a ++ q; lens := (ic, rc) :: ls |}
            {| cur := it; saved := c :: sv |}.

Lemma refines_abs s r : refines s r -> SInv s /\ abs s = r.
Proof.
  induction 1 as [it | it a q ic rc ls c sv La H1 H2 <- _ [IH1 IH2]]; [split; reflexivity|].
  unfold SnapStack.SInv, SnapStack.abs in *.
  cbn [items popped lens SnapStack.Inv SnapStack.recover] in *.
  rewrite firstn_app_exact, skipn_app_exact, app_length by congruence.
  injection IH2 as ->. repeat split; [exact H1|exact H2|lia|exact IH1].
Qed.

Lemma abs_refines s : SInv s -> refines s (abs s).
Proof.
  destruct s as [it pp ls]. unfold SnapStack.SInv, SnapStack.abs. cbn [items popped lens].
  revert it pp. induction ls as [|[ic rc] ls IH]; intros it pp HI;
    cbn [SnapStack.Inv SnapStack.recover] in *.
  - subst pp. apply ref_nil.
  - destruct HI as (H1 & H2 & H3 & H4). rewrite <- (firstn_skipn (ic - rc) pp) at 1.
    apply ref_top; [rewrite firstn_length; lia|exact H1|exact H2|reflexivity|apply IH, H4].
Qed.

Lemma refines_cur s r : refines s r -> cur r = items s.
Proof. destruct 1; reflexivity. Qed.

Lemma push_ref x s r : refines s r -> refines (spush x s) (rpush x r).
Proof.
  destruct 1 as [it | it a q ic rc ls c sv La H1 H2 E H]; unfold spush, rpush;
    cbn [items popped lens cur saved].
  - apply ref_nil.
  - apply ref_top; [exact La|exact H1|cbn [length]; lia| |exact H].
    rewrite bottom_cons by exact H2. exact E.
Qed.

Lemma snap_ref s r : refines s r -> refines (ssnap s) (rsnap r).
Proof.
  intros H. pose proof (refines_cur _ _ H) as E.
  destruct s as [it pp ls], r as [it' sv]. cbn [cur items] in E. subst it'.
  unfold ssnap, rsnap. cbn [items popped lens cur saved].
  apply (ref_top it [] pp); [cbn [length]; lia|lia|lia|apply bottom_all|exact H].
Qed.

Lemma restore_ref s r : refines s r -> refines (srestore s) (rrestore r).
Proof.
  destruct 1 as [it | it a q ic rc ls c sv La H1 H2 E H]; unfold srestore, rrestore;
    cbn [items popped lens cur saved].
  - apply ref_nil.
  - rewrite firstn_app_exact, skipn_app_exact, E by congruence. exact H.
Qed.

Lemma pop_ref s r : refines s r -> refines (spop s) (rpop r).
Proof.
  destruct 1 as [[|x rest] | [|x rest] a q ic rc ls c sv La H1 H2 E H]; unfold spop, rpop;
    cbn [items popped lens cur saved tl]; try apply ref_nil; [apply ref_top; assumption|]. cbn [length] in H2.
  destruct (Nat.eqb_spec (S (length rest)) rc) as [<-|Hne].
  - (* at the low-water mark: x moves from the untouched part to the popped list *)
    rewrite Nat.sub_succ, Nat.sub_0_r.
    apply (ref_top rest (x :: a)); [cbn [length]; lia|lia|lia| |exact H].
    cbn [rev]. rewrite <- app_assoc, bottom_all, <- E.
    exact (f_equal (app (rev a)) (eq_sym (bottom_all (x :: rest)))).
  - apply ref_top; [exact La|exact H1|lia| |exact H]. rewrite <- (bottom_cons rc x) by lia. exact E.
Qed.

Lemma clear_ref s r : refines s r -> refines (sclear s) (rclear r).
Proof.
  destruct 1 as [it | it a q ic rc ls c sv La H1 H2 E H]; unfold sclear, rclear;
    cbn [items popped lens cur saved].
  - apply ref_nil.
  - rewrite app_assoc. apply ref_top; [|lia|cbn [length]; lia| |exact H].
    + rewrite app_length, rev_length, bottom_length by exact H2. lia.
    + rewrite rev_app_distr, rev_involutive, <- E. exact (app_nil_r _).
Qed.

Lemma drop_ref s r : refines s r -> refines (sdrop s) (rdrop r).
Proof.
  destruct 1 as [it | it a q ic rc ls c sv La H1 H2 E H]; unfold sdrop, rdrop;
    cbn [items popped lens cur saved tl].
  - apply ref_nil.
  - rewrite skipn_app_exact by congruence.
    inversion H as [c0 | c0 b q' ic' rc' ls' c' sv' Lb G1 G2 E' H']; subst; [apply ref_nil|].
    rewrite app_length, rev_length, bottom_length in G2 by exact H2.
    destruct (Nat.ltb_spec rc rc') as [Hlt|Hge].
    + (* the outer snapshot keeps as much of what was popped since the inner one as lies
         below its own mark *)
      rewrite firstn_app_le, app_assoc by lia.
      apply ref_top; [|lia|exact H2| |exact H'].
      * rewrite app_length, firstn_length. lia.
      * rewrite bottom_copy_ge, rev_app_distr, app_assoc by lia. reflexivity.
    + apply ref_top; [exact Lb|exact G1|lia| |exact H'].
      rewrite bottom_copy_le by lia. reflexivity.
Qed.

Lemma step_ref s r o : refines s r -> refines (sstep A s o) (rstep A r o).
Proof.
  intros H. destruct o; cbn [sstep rstep].
  - apply push_ref, H.
  - apply pop_ref, H.
  - apply clear_ref, H.
  - apply snap_ref, H.
  - apply restore_ref, H.
  - apply drop_ref, H.
Qed.

Lemma history_refines : forall ops s r, refines s r ->
  refines (fold_left (sstep A) ops s) (fold_left (rstep A) ops r).
Proof.
  induction ops as [|o ops IH]; intros s r H; [exact H|]. apply IH, step_ref, H.
Qed.

(* commutes turns a simulation into the form with SInv and abs; history_ref is history_refines in that form *)
Lemma commutes (f : sstack A -> sstack A) (g : rstack A -> rstack A) :
  (forall s r, refines s r -> refines (f s) (g r)) ->
  forall s, SInv s -> SInv (f s) /\ abs (f s) = g (abs s).
Proof. intros H s HI. apply refines_abs, H, abs_refines, HI. Qed.

Theorem history_ref : forall ops s, SInv s ->
  SInv (fold_left (sstep A) ops s) /\
  abs (fold_left (sstep A) ops s) = fold_left (rstep A) ops (abs s).
Proof. intros ops. exact (commutes _ _ (history_refines ops)). Qed.

Theorem stack_refines : forall ops,
  items (fold_left (sstep A) ops (sinit A)) = cur (fold_left (rstep A) ops (rinit A)).
Proof.
  intros ops. symmetry. apply refines_cur, history_refines, ref_nil.
Qed.

End S.
