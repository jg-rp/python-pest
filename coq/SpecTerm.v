(* SpecTerm.v — termination of the reference semantics for well-formed grammars.
   `wf_grammar nul rank g` is a decidable check in the style of pest's validator, with a
   certificate: `nul` (the rules that may succeed without consuming) and `rank` (a ranking
   witnessing the absence of left recursion).  Of every rule it asks
   (a) the body is not nullable unless `nul` marks the rule;
   (b) no unbounded repetition has a nullable body;
   (c) every rule referred to in left position (before anything non-nullable has been passed;
       the implicit skip counts) has a smaller rank;
   and of the grammar
   (d) WHITESPACE and COMMENT are not marked nullable: the implicit skip is a star over them. *)
From Coq Require Import List ZArith Bool Lia.
Import ListNotations.
From PP Require Import Syntax Spec SpecLaws SpecSyn.

Section Check.
Variable nul : N -> bool.

(* conservative "may succeed without consuming input" *)
Fixpoint nullable (e : expr) : bool :=
  match e with
  | EStr s | ECIStr s => match s with [] => true | _ :: _ => false end
  | ERange _ _ | EAny | ECls _ => false
  | ESoi | EEoi => true
  | ERef n _ => nul n
  | ESeq es => forallb nullable es
  | EAlt es => existsb nullable es
  | EOpt _ | EStar _ | ERepMax _ _ | EAnd _ | ENot _ => true
  | EPlus e1 => nullable e1
  | ERepN e1 n | ERepMin e1 n => match n with O => true | S _ => nullable e1 end
  | ERepMinMax e1 m _ => match m with O => true | S _ => nullable e1 end
  | EGrp e1 _ | EPush e1 => nullable e1
  | EPushLit _ | EPeek | EPeekSl _ _ | EPeekAll | EPop | EPopAll | EDrop | ESkipUntil _ => true
  end.

Definition tnullable (t : task) : bool :=
  match t with
  | TEval e => nullable e
  | TSeq es => forallb nullable es
  | TAlt es => existsb nullable es
  | TStar _ => true
  end.

(* (b) at one node *)
Definition rep_node (e : expr) : bool :=
  match e with
  | EStar x | EPlus x | ERepMin x _ => negb (nullable x)
  | _ => true
  end.

(* (b) for every sub-expression, and for the body of a running star loop *)
Definition task_ok (t : task) : bool :=
  all_task rep_node t && match t with TStar e => negb (nullable e) | _ => true end.

(* rule references evaluated by the implicit skip; `sk` = "implicit skipping may be on" *)
Definition skip_refs (sk : bool) : list N := if sk then [WS_ID; CM_ID] else [].

(* (c): the implicit skip between two elements of a sequence is in left position when the
   elements before it are nullable *)
Section Left.
Variable sk : bool.

Fixpoint left_refs (e : expr) {struct e} : list N :=
  match e with
  | ERef m _ => [m]
  | ESeq es =>
      (fix go (l : list expr) : list N :=
         match l with
         | [] => []
         | x :: l' =>
             left_refs x ++
             (if nullable x
              then (match l' with [] => [] | _ :: _ => skip_refs sk end) ++ go l'
              else [])
         end) es
  | EAlt es => flat_map left_refs es
  | EOpt x | EStar x | EPlus x | ERepMin x _ | EAnd x | ENot x | EGrp x _ | EPush x =>
      left_refs x
  | ERepN x _ => left_refs x ++ (if nullable x then skip_refs sk else [])
  | ERepMax x _ | ERepMinMax x _ _ => left_refs x ++ skip_refs sk
  | _ => []
  end.

Fixpoint seq_left (l : list expr) : list N :=
  match l with
  | [] => []
  | x :: l' =>
      left_refs x ++
      (if nullable x
       then (match l' with [] => [] | _ :: _ => skip_refs sk end) ++ seq_left l'
       else [])
  end.

Definition task_left (t : task) : list N :=
  match t with
  | TEval e => left_refs e
  | TSeq es => seq_left es
  | TAlt es => flat_map left_refs es
  | TStar e => skip_refs sk ++ left_refs e
  end.

End Left.

(* can the body of rule r run with implicit skipping on? (KNormal inherits: conservative) *)
Definition may_skip (r : rule) : bool :=
  match r_kind r with
  | KCompound | KAtomic => false
  | _ => negb (is_trivia_name (r_name r))
  end.

Variable rank : N -> nat.
Variable g : grammar.

(* undefined references impose nothing *)
Definition ref_lt (b : nat) (m : N) : bool :=
  match lookup g m with None => true | Some _ => rank m <? b end.

Definition wf_rule (r : rule) : bool :=
  (negb (nullable (r_body r)) || nul (r_name r))                                   (* (a) *)
  && all_sub rep_node (r_body r)                                                    (* (b) *)
  && forallb (ref_lt (rank (r_name r))) (left_refs (may_skip r) (r_body r)).        (* (c) *)

Definition wf_grammar : bool :=
  forallb wf_rule g
  && (negb (has_ws g) || negb (nul WS_ID))                                          (* (d) *)
  && (negb (has_cm g) || negb (nul CM_ID)).

End Check.

(* Evaluation never lengthens the remaining text, and shortens it when the task is not
   nullable; the second half needs condition (a) only. *)

Section Rest.
Variable g : grammar.
Variable nul : N -> bool.
Hypothesis Hnul : forall n r, lookup g n = Some r -> nul n = false ->
  nullable nul (r_body r) = false.

Lemma nullable_terminal e : terminal e = true -> nullable nul e = false -> reads e = true.
Proof.
  intros T N. destruct e; try discriminate; try reflexivity; destruct s; (discriminate || reflexivity).
Qed.

Lemma nullable_unroll e t : unroll e = Some t -> nullable nul e = false -> tnullable nul t = false.
Proof.
  intros U N. destruct e; inversion U; subst t; clear U; cbn [tnullable nullable] in *; try exact N.
  - cbn. rewrite N. reflexivity.
  - destruct n; [discriminate|]. cbn. rewrite N. reflexivity.
  - destruct n; [discriminate|]. cbn. rewrite N. reflexivity.
  - discriminate.
  - destruct m; [discriminate|]. cbn. rewrite N. reflexivity.
Qed.

Definition rest_res (t : task) (s : st) (r : res) : Prop :=
  match r with
  | Ok s' _ => length (s_rest s') <= length (s_rest s) /\
               (tnullable nul t = false -> length (s_rest s') < length (s_rest s))
  | _ => True
  end.

Lemma run_rest : forall f c t s, rest_res t s (run g f c t s).
Proof.
  induction f as [|f IH]; intros c t s; [exact I|].
  assert (IHk : forall c s,
            match skip_with g (fun c' e' => run g f c' (TEval e')) c s with
            | Ok s' _ => length (s_rest s') <= length (s_rest s)
            | _ => True
            end).
  { intros c0 s0. apply skip_with_case; [apply le_n|]. intros e _.
    assert (R := IH (skip_ctx c0) (TEval e) s0). destruct (run g f _ _ _); try exact I. apply R. }
  destruct t as [e|es|es|e].
  - destruct (unroll e) as [t|] eqn:U.
    { rewrite (run_unroll g e t U). assert (R := IH c t s). destruct (run g f c t s); try exact I.
      split; [apply R|]. intros N. apply R. exact (nullable_unroll e t U N). }
    destruct (terminal e) eqn:T.
    { assert (R := run_terminal g e T f c s).
      destruct (run g (S f) c (TEval e) s) as [s' ps| | |]; try exact I.
      destruct R as [_ [m [(L & E & _) P]]]. cbn [rest_res]. rewrite E, skipn_length.
      split; [lia|]. intros N. specialize (P (nullable_terminal e T N)). lia. }
    destruct e; try discriminate; cbn [run].
    + destruct (lookup g n) as [r|] eqn:EL; [|exact I].
      next_run IH IHk R; try exact I.
      destruct (finish_rule _ _ _ _ _) as [s2 ps] eqn:EF. apply rest_finish_rule in EF.
      cbn [rest_res tnullable nullable] in *. rewrite rest_pop_tag, EF. rewrite rest_push_tag in R.
      split; [apply R|]. intros N. apply R. exact (Hnul n r EL N).
    + (* EOpt *) next_run IH IHk R; try exact I; (split; [|discriminate]); [apply R|apply le_n].
    + (* EStar *) next_run IH IHk R1; try exact I; [|split; [apply le_n|discriminate]].
      next_run IH IHk R2; try exact I. destruct R1 as [L1 _], R2 as [L2 _].
      split; [lia|discriminate].
    + (* EAnd *) next_run IH IHk R; try exact I. split; [apply le_n|discriminate].
    + (* ENot *) next_run IH IHk R; try exact I. split; [apply le_n|discriminate].
    + (* EGrp *) next_run IH IHk R; try exact I.
      cbn [rest_res tnullable nullable] in *. rewrite rest_pop_tag. rewrite rest_push_tag in R. exact R.
    + (* EPush *) next_run IH IHk R; try exact I. exact R.
  - (* TSeq *) cbn [run]. destruct es as [|e1 es']; [split; [apply le_n|discriminate]|].
    next_run IH IHk R1; try exact I.
    destruct es' as [|e2 es''].
    { split; [apply R1|]. intros N. apply R1. cbn in N. rewrite andb_true_r in N. exact N. }
    next_run IH IHk R2; try exact I. next_run IH IHk R3; try exact I.
    cbn [rest_res tnullable forallb] in *. destruct R1 as [L1 C1], R3 as [L3 C3].
    split; [lia|]. intros N.
    destruct (nullable nul e1); [specialize (C3 N)|specialize (C1 eq_refl)]; lia.
  - (* TAlt *) cbn [run]. destruct es as [|e1 es']; [exact I|].
    assert (R1 := IH c (TEval e1) s).
    destruct (run g f c (TEval e1) s) as [s1 p1|t| |]; try exact I.
    + split; [apply R1|]. intros N. apply R1. cbn in N. apply orb_false_elim in N. apply N.
    + assert (R2 := IH c (TAlt es') (set_trk s t)).
      destruct (run g f c (TAlt es') (set_trk s t)); try exact I.
      split; [apply R2|]. intros N. apply R2. cbn in N. apply orb_false_elim in N. apply N.
  - (* TStar *) cbn [run]. next_run IH IHk R1; try exact I.
    next_run IH IHk R2; try exact I; [|split; [apply le_n|discriminate]].
    next_run IH IHk R3; try exact I. destruct R2 as [L2 _], R3 as [L3 _].
    split; [lia|discriminate].
Qed.

End Rest.

Theorem run_no_lengthen_all : forall g f c t s s' ps,
  run g f c t s = Ok s' ps -> length (s_rest s') <= length (s_rest s).
Proof.
  (* with every rule marked nullable the hypothesis of run_rest holds of any grammar *)
  intros g f c t s s' ps H.
  assert (R : rest_res (fun _ => true) t s (run g f c t s)) by (apply run_rest; discriminate).
  rewrite H in R. apply R.
Qed.

Lemma skip_no_lengthen g f c s s' ps :
  skip_with g (fun c' e' => run g f c' (TEval e')) c s = Ok s' ps ->
  length (s_rest s') <= length (s_rest s).
Proof.
  apply skip_with_case; [intros H; inversion H; subst; apply le_n|].
  intros e _. apply run_no_lengthen_all.
Qed.

Section Term.
Variable nul : N -> bool.
Variable rank : N -> nat.
Variable g : grammar.
Hypothesis WF : wf_grammar nul rank g = true.

Lemma wf_parts : forallb (wf_rule nul rank g) g = true /\
  (has_ws g = true -> nul WS_ID = false) /\ (has_cm g = true -> nul CM_ID = false).
Proof.
  unfold wf_grammar in WF. apply andb_prop in WF. destruct WF as [W W3].
  apply andb_prop in W. destruct W as [W1 W2].
  split; [exact W1|split; intros H; rewrite H in *]; [destruct (nul WS_ID)|destruct (nul CM_ID)];
    (reflexivity || discriminate).
Qed.

Lemma wf_lookup n r : lookup g n = Some r ->
  r_name r = n /\ (nul n = false -> nullable nul (r_body r) = false) /\
  all_sub (rep_node nul) (r_body r) = true /\
  forall m, In m (left_refs nul (may_skip r) (r_body r)) -> ref_lt rank g (rank n) m = true.
Proof.
  intros H. assert (E := lookup_name _ _ _ H).
  assert (W := proj1 wf_parts). rewrite forallb_forall in W.
  specialize (W r (lookup_In _ _ _ H)). unfold wf_rule in W. rewrite E in W.
  apply andb_prop in W. destruct W as [W Wc]. apply andb_prop in W. destruct W as [Wa Wb].
  rewrite forallb_forall in Wc.
  split; [exact E|split; [|split; [exact Wb|exact Wc]]].
  intros Hn. rewrite Hn in Wa. destruct (nullable nul (r_body r)); [discriminate|reflexivity].
Qed.

Lemma wf_body_not_nullable n r :
  lookup g n = Some r -> nul n = false -> nullable nul (r_body r) = false.
Proof. intros H. apply (wf_lookup n r H). Qed.

Lemma run_consumes f c t s s' ps : tnullable nul t = false ->
  run g f c t s = Ok s' ps -> length (s_rest s') < length (s_rest s).
Proof.
  intros N H. assert (R := run_rest g nul wf_body_not_nullable f c t s). rewrite H in R. apply R. exact N.
Qed.

Notation skipf f := (fun c' e' => run g f c' (TEval e')).

Lemma skip_halts c s :
  (c_atom c = NonAtomic -> forall e, skip_expr g = Some e ->
     exists f, run g f (skip_ctx c) (TEval e) s <> Fuel) ->
  exists f, skip_with g (skipf f) c s <> Fuel.
Proof.
  intros H. unfold skip_with. destruct (c_atom c); try (exists 0; discriminate).
  destruct (skip_expr g) as [e|]; [exact (H eq_refl e eq_refl)|exists 0; discriminate].
Qed.

Lemma term_star c e s :
  (exists f, run g f c (TEval e) s <> Fuel) ->
  (forall f s1 p1, run g f c (TEval e) s = Ok s1 p1 -> exists f', run g f' c (TStar e) s1 <> Fuel) ->
  exists f, run g f c (TEval (EStar e)) s <> Fuel.
Proof.
  intros T1 H2. apply halts_step. cbn [run].
  apply halts_call; [apply run_stable|exact T1| |intros; exists 0; discriminate].
  intros f s1 p1 E1.
  apply halts_call; [apply run_stable|exact (H2 f s1 p1 E1)|intros; exists 0; discriminate..].
Qed.

Lemma term_seq c e1 e2 es s :
  (exists f, run g f c (TEval e1) s <> Fuel) ->
  (forall f s1 p1, run g f c (TEval e1) s = Ok s1 p1 ->
     exists f', skip_with g (skipf f') c s1 <> Fuel) ->
  (forall f s1 p1 f' s2 pw, run g f c (TEval e1) s = Ok s1 p1 ->
     skip_with g (skipf f') c s1 = Ok s2 pw ->
     exists f'', run g f'' c (TSeq (e2 :: es)) s2 <> Fuel) ->
  exists f, run g f c (TSeq (e1 :: e2 :: es)) s <> Fuel.
Proof.
  intros T1 H2 H3. apply halts_step. cbn [run].
  apply halts_call; [apply run_stable|exact T1| |intros; exists 0; discriminate].
  intros f s1 p1 E1.
  apply halts_call; [apply skip_stable|exact (H2 f s1 p1 E1)| |intros; exists 0; discriminate].
  intros f' s2 pw E2.
  apply halts_call; [apply run_stable|exact (H3 f s1 p1 f' s2 pw E1 E2)|intros; exists 0; discriminate..].
Qed.

Lemma term_alt c e1 es s :
  (exists f, run g f c (TEval e1) s <> Fuel) ->
  (forall f t, run g f c (TEval e1) s = Fail t ->
     exists f', run g f' c (TAlt es) (set_trk s t) <> Fuel) ->
  exists f, run g f c (TAlt (e1 :: es)) s <> Fuel.
Proof.
  intros T1 H2. apply halts_step. cbn [run].
  apply halts_call; [apply run_stable|exact T1|intros; exists 0; discriminate|].
  intros f t E1. apply halts_from. exact (H2 f t E1).
Qed.

Lemma term_tstar c e s :
  (exists f, skip_with g (skipf f) c s <> Fuel) ->
  (forall f s2 pw, skip_with g (skipf f) c s = Ok s2 pw ->
     exists f', run g f' c (TEval e) s2 <> Fuel) ->
  (forall f s2 pw f' s3 p3, skip_with g (skipf f) c s = Ok s2 pw ->
     run g f' c (TEval e) s2 = Ok s3 p3 -> exists f'', run g f'' c (TStar e) s3 <> Fuel) ->
  exists f, run g f c (TStar e) s <> Fuel.
Proof.
  intros T1 H2 H3. apply halts_step. cbn [run].
  apply halts_call; [apply skip_stable|exact T1| |intros; exists 0; discriminate].
  intros f s2 pw E1.
  apply halts_call; [apply run_stable|exact (H2 f s2 pw E1)| |intros; exists 0; discriminate].
  intros f' s3 p3 E2.
  apply halts_call; [apply run_stable|exact (H3 f s2 pw f' s3 p3 E1 E2)|intros; exists 0; discriminate..].
Qed.

(* a size on tasks: every recursive call of `run` that stays at the same input position and
   in left position is on a smaller task *)

Fixpoint esize (e : expr) : nat :=
  match e with
  | ESeq es | EAlt es =>
      S (S ((fix go (l : list expr) : nat :=
               match l with [] => 0 | x :: l' => S (esize x + go l') end) es))
  | EOpt x | EStar x | EAnd x | ENot x | EGrp x _ | EPush x => S (esize x)
  | EPlus x => esize x + esize x + 5
  | ERepN x k => S (S (k * S (esize x)))
  | ERepMin x k => S (S (k * S (esize x) + S (S (esize x))))
  | ERepMax x k => S (S (k * S (S (esize x))))
  | ERepMinMax x m k => S (S (m * S (esize x) + (k - m) * S (S (esize x))))
  | _ => 1
  end.

Fixpoint lsize (l : list expr) : nat :=
  match l with [] => 0 | x :: l' => S (esize x + lsize l') end.

Definition tsize (t : task) : nat :=
  match t with
  | TEval e => esize e
  | TSeq es | TAlt es => S (lsize es)
  | TStar e => S (esize e)
  end.

Lemma esize_seq es : esize (ESeq es) = S (S (lsize es)).
Proof. reflexivity. Qed.
Lemma esize_alt es : esize (EAlt es) = S (S (lsize es)).
Proof. reflexivity. Qed.

Lemma esize_pos e : 1 <= esize e.
Proof. destruct e; cbn [esize]; lia. Qed.

Lemma tsize_pos t : 1 <= tsize t.
Proof. destruct t; cbn [tsize]; try lia. apply esize_pos. Qed.

Lemma lsize_app a b : lsize (a ++ b) = lsize a + lsize b.
Proof. induction a as [|x a IH]; cbn [app lsize]; [reflexivity|rewrite IH; lia]. Qed.

Lemma lsize_repeat x k : lsize (repeat x k) = k * S (esize x).
Proof. induction k as [|k IH]; cbn [repeat lsize]; [reflexivity|rewrite IH; lia]. Qed.

Lemma left_refs_seq sk es : left_refs nul sk (ESeq es) = seq_left nul sk es.
Proof. reflexivity. Qed.

Lemma seq_left_incl sk (L : list N) : forall es,
  (forall x, In x es -> incl (left_refs nul sk x) L) -> incl (skip_refs sk) L ->
  incl (seq_left nul sk es) L.
Proof.
  induction es as [|x es IH]; intros Hx Hs; cbn [seq_left].
  - intros m Hm. destruct Hm.
  - apply incl_app; [apply Hx; left; reflexivity|].
    destruct (nullable nul x); [|intros m Hm; destruct Hm].
    apply incl_app.
    + destruct es; [intros m Hm; destruct Hm|exact Hs].
    + apply IH; [|exact Hs]. intros y Hy. apply Hx. right. exact Hy.
Qed.

Lemma seq_left_nn sk x l : nullable nul x = false ->
  incl (seq_left nul sk (x :: l)) (left_refs nul sk x).
Proof.
  intros H. cbn [seq_left]. rewrite H. rewrite app_nil_r. apply incl_refl.
Qed.

Lemma seq_left_tail sk e1 e2 es m : nullable nul e1 = true ->
  In m (skip_refs sk ++ seq_left nul sk (e2 :: es)) -> In m (seq_left nul sk (e1 :: e2 :: es)).
Proof.
  intros H Hm.
  change (In m (left_refs nul sk e1 ++
                (if nullable nul e1 then skip_refs sk ++ seq_left nul sk (e2 :: es) else []))).
  rewrite H. apply in_or_app. right. exact Hm.
Qed.

Lemma seq_left_head sk e1 es m :
  In m (left_refs nul sk e1) -> In m (seq_left nul sk (e1 :: es)).
Proof. intros Hm. cbn [seq_left]. apply in_or_app. left. exact Hm. Qed.

Lemma skip_expr_ok e : skip_expr g = Some e -> task_ok nul (TEval e) = true.
Proof.
  intros H. destruct wf_parts as [_ [Ww Wc]]. unfold skip_expr in H.
  destruct (has_ws g), (has_cm g); inversion H; subst; clear H;
    unfold task_ok; cbn; rewrite ?Ww, ?Wc by reflexivity; reflexivity.
Qed.

Lemma skip_expr_left e : skip_expr g = Some e ->
  forall m, In m (left_refs nul false e) -> m = WS_ID \/ m = CM_ID.
Proof.
  intros H m Hm. unfold skip_expr in H.
  destruct (has_ws g), (has_cm g); inversion H; subst; clear H; cbn in Hm.
  - destruct (nul CM_ID); cbn in Hm; intuition.
  - intuition.
  - intuition.
Qed.

Lemma ok_eval e : all_sub (rep_node nul) e = true -> task_ok nul (TEval e) = true.
Proof. intros H. unfold task_ok. cbn [all_task]. rewrite H. reflexivity. Qed.
Lemma ok_seq es : all_list (rep_node nul) es = true -> task_ok nul (TSeq es) = true.
Proof. intros H. unfold task_ok. cbn [all_task]. rewrite H. reflexivity. Qed.
Lemma ok_alt es : all_list (rep_node nul) es = true -> task_ok nul (TAlt es) = true.
Proof. intros H. unfold task_ok. cbn [all_task]. rewrite H. reflexivity. Qed.
Lemma ok_star e : all_sub (rep_node nul) e = true -> nullable nul e = false ->
  task_ok nul (TStar e) = true.
Proof. intros H N. unfold task_ok. cbn [all_task]. rewrite H, N. reflexivity. Qed.

Lemma body_atom_may_skip c r : body_atom c r = NonAtomic -> may_skip r = true.
Proof.
  unfold body_atom, may_skip. intros H.
  destruct (r_kind r); try discriminate;
    destruct (is_trivia_name (r_name r)); try discriminate; reflexivity.
Qed.

Lemma ref_lt_mono b b' m : ref_lt rank g b m = true -> b <= b' -> ref_lt rank g b' m = true.
Proof.
  unfold ref_lt. intros H L. destruct (lookup g m); [|reflexivity].
  apply Nat.ltb_lt in H. apply Nat.ltb_lt. lia.
Qed.

Lemma term_terminal e : terminal e = true -> forall c s, exists f, run g f c (TEval e) s <> Fuel.
Proof.
  intros T c s. exists 1. intros E. assert (R := run_terminal g e T 0 c s). rewrite E in R. exact R.
Qed.

Lemma tsize_unroll e t : unroll e = Some t -> tsize t < esize e.
Proof.
  intros U. destruct e; inversion U; subst t; rewrite ?esize_seq, ?esize_alt; cbn [tsize esize];
    rewrite ?lsize_app, ?lsize_repeat; cbn [lsize esize]; lia.
Qed.

Lemma ok_unroll e t : unroll e = Some t -> all_sub (rep_node nul) e = true -> task_ok nul t = true.
Proof.
  intros U H. unfold task_ok. rewrite (all_task_unroll (rep_node nul) e t) by (reflexivity || assumption).
  destruct e; inversion U; reflexivity.
Qed.

Lemma left_unroll sk e t : unroll e = Some t -> rep_node nul e = true ->
  incl (task_left nul sk t) (left_refs nul sk e).
Proof.
  intros U H. destruct e; inversion U; subst t; clear U; cbn [task_left left_refs rep_node] in *;
    try apply incl_refl.
  - (* EPlus *) apply seq_left_nn. apply negb_true_iff. exact H.
  - (* ERepN *) destruct (nullable nul e) eqn:NE.
    + apply seq_left_incl; [|apply incl_appr, incl_refl].
      intros x Hx. apply repeat_spec in Hx. subst x. apply incl_appl, incl_refl.
    + rewrite app_nil_r. destruct n; [intros m []|apply seq_left_nn; exact NE].
  - (* ERepMin *) destruct n; [|apply seq_left_nn; apply negb_true_iff; exact H].
    cbn [repeat app seq_left left_refs nullable]. rewrite !app_nil_r. apply incl_refl.
  - (* ERepMax *) apply seq_left_incl; [|apply incl_appr, incl_refl].
    intros x Hx. apply repeat_spec in Hx. subst x. apply incl_appl, incl_refl.
  - (* ERepMinMax *) apply seq_left_incl; [|apply incl_appr, incl_refl].
    intros x Hx. apply in_app_or in Hx.
    destruct Hx as [Hx|Hx]; apply repeat_spec in Hx; subst x; apply incl_appl, incl_refl.
Qed.

(* the constructs that evaluate one sub-expression, once, where they stand *)

Definition operand (e : expr) : option expr :=
  match e with
  | EOpt x | EAnd x | ENot x | EGrp x _ | EPush x => Some x
  | _ => None
  end.

Lemma operand_facts sk e x : operand e = Some x ->
  esize x < esize e /\ (all_sub (rep_node nul) e = true -> all_sub (rep_node nul) x = true) /\
  left_refs nul sk e = left_refs nul sk x.
Proof.
  intros B. destruct e; inversion B; subst x;
    (split; [cbn [esize]; lia|split; [|reflexivity]]);
    cbn [all_sub]; intros A; apply andb_prop in A; apply A.
Qed.

Lemma term_operand e x : operand e = Some x -> forall c s, exists c' s',
  c_atom c' = c_atom c /\ s_rest s' = s_rest s /\
  forall f, run g f c' (TEval x) s' <> Fuel -> run g (S f) c (TEval e) s <> Fuel.
Proof.
  intros B c s. destruct e; inversion B; subst x;
    [exists c, s|exists c, s|exists (neg_ctx c), s|exists c, (push_tag tag s)|exists c, s];
    (split; [reflexivity|split; [try reflexivity; apply rest_push_tag|]]);
    intros f H; cbn [run]; destruct (run g f _ _ _); try discriminate; congruence.
Qed.

Section AtN.
Variable n : nat.
Hypothesis IHn : forall c t s, length (s_rest s) < n -> task_ok nul t = true ->
  exists f, run g f c t s <> Fuel.

(* rule m terminates when called with n characters left *)
Definition good (m : N) : Prop :=
  forall c tag s, length (s_rest s) = n -> exists f, run g f c (TEval (ERef m tag)) s <> Fuel.

(* That the skip itself terminates at n is a hypothesis, so that `inner` can be used twice:
   with sk = false, where the hypothesis is void, for the skip expression, which runs with
   skipping off (skip_at_n); then, with skip_at_n for the hypothesis, for the rule bodies. *)
Section Inner.
Variable sk : bool.
Hypothesis HSK : sk = true -> good WS_ID -> good CM_ID ->
  forall c s, length (s_rest s) = n -> exists f, skip_with g (skipf f) c s <> Fuel.

Lemma skip_upto_n c s : length (s_rest s) <= n -> (c_atom c = NonAtomic -> sk = true) ->
  (length (s_rest s) = n -> forall m, In m (skip_refs sk) -> good m) ->
  exists f, skip_with g (skipf f) c s <> Fuel.
Proof.
  intros L Hc Hg.
  destruct (Nat.eq_dec (length (s_rest s)) n) as [E|E].
  2: { apply skip_halts. intros _ e E0. apply IHn; [lia|exact (skip_expr_ok e E0)]. }
  destruct (c_atom c) eqn:EA; [|apply skip_halts; rewrite EA; discriminate..].
  assert (S1 := Hc eq_refl).
  apply HSK; [exact S1| | |exact E]; apply (Hg E); rewrite S1; [left|right; left]; reflexivity.
Qed.

Lemma inner : forall sz t, tsize t <= sz -> forall c s,
  length (s_rest s) = n -> task_ok nul t = true -> (c_atom c = NonAtomic -> sk = true) ->
  (forall m, In m (task_left nul sk t) -> good m) -> exists f, run g f c t s <> Fuel.
Proof.
  induction sz as [|sz IH]; intros t Hsz c s Hn Hok Hc Hl.
  { assert (P := tsize_pos t). lia. }
  (* sub-tasks that start further on are covered by IHn, whatever their size *)
  assert (K : forall t' c' s', tsize t' <= sz -> length (s_rest s') <= n ->
            task_ok nul t' = true -> (c_atom c' = NonAtomic -> sk = true) ->
            (length (s_rest s') = n -> forall m, In m (task_left nul sk t') -> good m) ->
            exists f, run g f c' t' s' <> Fuel).
  { intros t' c' s' A B C D E.
    destruct (Nat.eq_dec (length (s_rest s')) n) as [F|F].
    - apply IH; auto.
    - apply IHn; [lia|exact C]. }
  unfold task_ok in Hok. apply andb_prop in Hok. destruct Hok as [Hall Hst].
  destruct t as [e|es|es|e];
    cbn [tsize] in Hsz; cbn [all_task] in Hall; cbn [task_left] in Hl.
  - destruct (unroll e) as [t|] eqn:U.
    { assert (Z := tsize_unroll e t U).
      destruct (IH t) with (c := c) (s := s) as [f Hf];
        [lia|exact Hn|exact (ok_unroll e t U Hall)|exact Hc|
        |exists (S f); rewrite (run_unroll g e t U); exact Hf].
      intros m Hm. apply Hl. exact (left_unroll sk e t U (all_sub_here _ e Hall) m Hm). }
    destruct (terminal e) eqn:T; [exact (term_terminal e T c s)|].
    destruct (operand e) as [x|] eqn:B.
    { destruct (term_operand e x B c s) as [c' [s' [Ec [Es Kf]]]].
      destruct (operand_facts sk e x B) as [Z [Ha El]].
      destruct (IH (TEval x)) with (c := c') (s := s') as [f Hf];
        [cbn [tsize]; lia|rewrite Es; exact Hn|apply ok_eval; exact (Ha Hall)
        |rewrite Ec; exact Hc|cbn [task_left]; rewrite <- El; exact Hl|].
      exists (S f). apply Kf. exact Hf. }
    destruct e; try discriminate.
    + (* ERef *) eapply Hl; [left; reflexivity|exact Hn].
    + cbn [all_sub] in Hall. apply andb_prop in Hall. destruct Hall as [Hr Ha].
      cbn [rep_node] in Hr. apply negb_true_iff in Hr. cbn [esize] in Hsz.
      apply term_star.
      * apply IH; [cbn [tsize]; lia|exact Hn|apply ok_eval; exact Ha|exact Hc|exact Hl].
      * intros f s1 p1 E1. apply run_consumes in E1; [|exact Hr].
        apply IHn; [lia|apply ok_star; assumption].
  - (* TSeq *) destruct es as [|e1 es']; [exists 1; cbn [run]; discriminate|].
    cbn [all_list forallb] in Hall. apply andb_prop in Hall. destruct Hall as [Ha1 Ha2].
    cbn [lsize] in Hsz.
    assert (T1 : exists f, run g f c (TEval e1) s <> Fuel).
    { apply IH; [cbn [tsize]; lia|exact Hn|apply ok_eval; exact Ha1|exact Hc|].
      intros m Hm. apply Hl. apply seq_left_head. exact Hm. }
    destruct es' as [|e2 es''].
    { destruct T1 as [f Hf]. exists (S f). rewrite seq_last_no_trivia. exact Hf. }
    (* what follows e1 is in left position only if e1 has consumed nothing *)
    assert (G : forall f s1 p1, run g f c (TEval e1) s = Ok s1 p1 -> length (s_rest s1) = n ->
              forall m, In m (skip_refs sk ++ seq_left nul sk (e2 :: es'')) -> good m).
    { intros f s1 p1 E1 EQ m Hm. apply Hl. apply seq_left_tail; [|exact Hm].
      destruct (nullable nul e1) eqn:N1; [reflexivity|].
      apply run_consumes in E1; [lia|exact N1]. }
    apply term_seq; [exact T1| |].
    + intros f s1 p1 E1. assert (L1 := run_no_lengthen_all g _ _ _ _ _ _ E1).
      apply skip_upto_n; [lia|exact Hc|].
      intros EQ m Hm. apply (G _ _ _ E1 EQ). apply in_or_app. left. exact Hm.
    + intros f s1 p1 f' s2 pw E1 E2. assert (L1 := run_no_lengthen_all g _ _ _ _ _ _ E1).
      assert (L2 := skip_no_lengthen g _ _ _ _ _ E2).
      apply K; [cbn [tsize lsize] in *; lia|lia|apply ok_seq; exact Ha2|exact Hc|].
      intros EQ m Hm. apply (G _ _ _ E1); [lia|]. apply in_or_app. right. exact Hm.
  - (* TAlt *) destruct es as [|e1 es']; [exists 1; cbn [run]; discriminate|].
    cbn [all_list forallb] in Hall. apply andb_prop in Hall. destruct Hall as [Ha1 Ha2].
    cbn [lsize] in Hsz. cbn [flat_map] in Hl.
    apply term_alt.
    + apply IH; [cbn [tsize]; lia|exact Hn|apply ok_eval; exact Ha1|exact Hc|].
      intros m Hm. apply Hl. apply in_or_app. left. exact Hm.
    + intros f t E1. apply IH; [cbn [tsize]; lia|exact Hn|apply ok_alt; exact Ha2|exact Hc|].
      intros m Hm. apply Hl. apply in_or_app. right. exact Hm.
  - (* TStar *) apply negb_true_iff in Hst.
    apply term_tstar.
    + apply skip_upto_n; [lia|exact Hc|]. intros _ m Hm. apply Hl. apply in_or_app. left. exact Hm.
    + intros f s2 pw E1. assert (L1 := skip_no_lengthen g _ _ _ _ _ E1).
      apply K; [cbn [tsize]; lia|lia|apply ok_eval; exact Hall|exact Hc|].
      intros _ m Hm. apply Hl. apply in_or_app. right. exact Hm.
    + intros f s2 pw f' s3 p3 E1 E2. assert (L1 := skip_no_lengthen g _ _ _ _ _ E1).
      apply run_consumes in E2; [|exact Hst].
      apply IHn; [lia|apply ok_star; assumption].
Qed.

End Inner.

Lemma skip_at_n : good WS_ID -> good CM_ID -> forall c s, length (s_rest s) = n ->
  exists f, skip_with g (skipf f) c s <> Fuel.
Proof.
  intros GW GC c s Hn. apply skip_halts. intros _ e E.
  apply (inner false) with (sz := esize e).
  - intros A. discriminate.
  - cbn [tsize]. lia.
  - exact Hn.
  - apply skip_expr_ok. exact E.
  - cbn. intros A. discriminate.
  - intros m Hm. cbn [task_left] in Hm.
    destruct (skip_expr_left e E m Hm) as [-> | ->]; assumption.
Qed.

Lemma task_at_n sk t c s :
  length (s_rest s) = n -> task_ok nul t = true -> (c_atom c = NonAtomic -> sk = true) ->
  (forall m, In m (task_left nul sk t) -> good m) -> exists f, run g f c t s <> Fuel.
Proof.
  intros Hn Hok Hc Hl.
  apply (inner sk (fun _ => skip_at_n) (tsize t)); auto.
Qed.

(* induction on the rank bound: every rule terminates at n *)
Lemma rules_good : forall b m, ref_lt rank g b m = true -> good m.
Proof.
  induction b as [|b IHb]; intros m H c tag s Hn; unfold ref_lt in H;
    destruct (lookup g m) as [r|] eqn:EL.
  - apply Nat.ltb_lt in H. lia.
  - exists 1. cbn [run]. rewrite EL. discriminate.
  - apply Nat.ltb_lt in H.
    destruct (wf_lookup m r EL) as [NM [_ [Wb Wc]]].
    destruct (task_at_n (may_skip r) (TEval (r_body r)) (rule_ctx c r) (push_tag tag s)) as [f Hf].
    + rewrite rest_push_tag. exact Hn.
    + apply ok_eval. exact Wb.
    + cbn [rule_ctx c_atom]. apply body_atom_may_skip.
    + intros m' Hm'. cbn [task_left] in Hm'. apply IHb.
      apply (ref_lt_mono (rank m)); [apply Wc; exact Hm'|lia].
    + exists (S f). cbn [run]. rewrite EL.
      destruct (run g f (rule_ctx c r) (TEval (r_body r)) (push_tag tag s)) as [s1 kids|t| |];
        try discriminate; [|congruence].
      destruct (finish_rule c r (s_pos s) s1 kids). discriminate.
  - exists 1. cbn [run]. rewrite EL. discriminate.
Qed.

Lemma halts_at_n c t s : length (s_rest s) = n -> task_ok nul t = true ->
  exists f, run g f c t s <> Fuel.
Proof.
  intros Hn Hok. apply (task_at_n true); [exact Hn|exact Hok|reflexivity|].
  intros m _. apply (rules_good (S (rank m))). unfold ref_lt.
  destruct (lookup g m); [apply Nat.ltb_lt; lia|reflexivity].
Qed.

End AtN.

End Term.

Theorem eval_consumes : forall nul rank g, wf_grammar nul rank g = true ->
  forall f c e s s' ps, nullable nul e = false -> run g f c (TEval e) s = Ok s' ps ->
  length (s_rest s') < length (s_rest s).
Proof.
  intros nul rank g WF f c e s s' ps N H.
  exact (run_consumes nul rank g WF f c (TEval e) s s' ps N H).
Qed.

Theorem run_terminates : forall nul rank g, wf_grammar nul rank g = true ->
  forall c t s, task_ok nul t = true -> exists f, run g f c t s <> Fuel.
Proof.
  intros nul rank g WF c t s. remember (length (s_rest s)) as n eqn:E. revert c t s E.
  induction n as [n IHn] using lt_wf_ind. intros c t s E Hok.
  apply (halts_at_n nul rank g WF n); [|symmetry; exact E|exact Hok].
  intros c' t' s' L Hok'. apply (IHn (length (s_rest s'))); [exact L|reflexivity|exact Hok'].
Qed.

Theorem parse_terminates : forall nul rank g, wf_grammar nul rank g = true ->
  forall rule input k, exists f, parse g f rule input k <> Fuel.
Proof.
  intros nul rank g WF rule input k. unfold parse, eval.
  apply (run_terminates nul rank g WF). reflexivity.
Qed.

Corollary rule_body_terminates : forall nul rank g, wf_grammar nul rank g = true ->
  forall n r c s, lookup g n = Some r -> exists f, run g f c (TEval (r_body r)) s <> Fuel.
Proof.
  intros nul rank g WF n r c s EL. apply (run_terminates nul rank g WF).
  destruct (wf_lookup nul rank g WF n r EL) as [_ [_ [Wb _]]].
  apply ok_eval. exact Wb.
Qed.

Corollary runs_total : forall nul rank g, wf_grammar nul rank g = true ->
  forall c t s, task_ok nul t = true -> exists r, runs g c t s r.
Proof.
  intros nul rank g WF c t s Hok. destruct (run_terminates nul rank g WF c t s Hok) as [f Hf].
  exists (run g f c t s). exists f. split; [reflexivity|exact Hf].
Qed.

Definition mk (n : N) (silent : bool) (e : expr) : rule :=
  {| r_name := n; r_silent := silent; r_kind := KNormal; r_body := e |}.

(* balanced = { "(" ~ balanced* ~ ")" } : recursive, not left recursive *)
Example wf_balanced :
  wf_grammar (fun _ => false) (fun _ => 0)
    [{| r_name := 5; r_silent := false; r_kind := KNormal;
        r_body := ESeq [EStr [40%N]; EStar (ERef 5 None); EStr [41%N]] |}] = true.
Proof. vm_compute; reflexivity. Qed.

(* WHITESPACE = _{ " " }   item = { "a" }   list = { item ~ ("," ~ item)* ~ "b"? } *)
Example wf_with_whitespace :
  wf_grammar (fun _ => false) (fun n => N.to_nat n)
    [ mk WS_ID true (EStr [32%N]);
      mk 5 false (EStr [97%N]);
      mk 6 false (ESeq [ERef 5 None; EStar (ESeq [EStr [44%N]; ERef 5 None]); EOpt (EStr [98%N])]) ]
  = true.
Proof. vm_compute; reflexivity. Qed.

(* a nullable rule, left position through a nullable prefix, the implicit skip in left position:
   WHITESPACE = _{ "\r"? ~ "\n" }   item = { "a" }   opt = { item? }   two = { opt ~ item } *)
Example wf_nullable_prefix :
  wf_grammar (fun n => N.eqb n 7) (fun n => N.to_nat n)
    [ mk WS_ID true (ESeq [EOpt (EStr [13%N]); EStr [10%N]]);
      mk 5 false (EStr [97%N]);
      mk 7 false (EOpt (ERef 5 None));
      mk 8 false (ESeq [ERef 7 None; ERef 5 None]) ]
  = true.
Proof. vm_compute; reflexivity. Qed.

(* a = { a ~ "x" } : left recursive; rejected whatever the certificate says about a *)
Example wf_rejects_left_recursion : forall nul rank,
  wf_grammar nul rank [mk 5 false (ESeq [ERef 5 None; EStr [120%N]])] = false.
Proof.
  intros nul rank. unfold wf_grammar, wf_rule, ref_lt. cbn -[Nat.ltb].
  rewrite Nat.ltb_irrefl. rewrite !andb_false_r. reflexivity.
Qed.

Example wf_rejects_left_recursion_0 :
  wf_grammar (fun _ => false) (fun _ => 0) [mk 5 false (ESeq [ERef 5 None; EStr [120%N]])] = false.
Proof. vm_compute; reflexivity. Qed.

(* indirect left recursion through a nullable prefix: a = { "x"? ~ a } *)
Example wf_rejects_hidden_left_recursion : forall nul rank,
  wf_grammar nul rank [mk 5 false (ESeq [EOpt (EStr [120%N]); ERef 5 None])] = false.
Proof.
  intros nul rank. unfold wf_grammar, wf_rule, ref_lt. cbn -[Nat.ltb].
  rewrite Nat.ltb_irrefl. rewrite !andb_false_r. reflexivity.
Qed.

(* b = { ("x"?)* } : repetition of a nullable body; rejected whatever the certificate *)
Example wf_rejects_nullable_star : forall nul rank,
  wf_grammar nul rank [mk 6 false (EStar (EOpt (EStr [120%N])))] = false.
Proof. intros nul rank. unfold wf_grammar, wf_rule. cbn. rewrite !andb_false_r. reflexivity. Qed.

Example wf_rejects_nullable_star_0 :
  wf_grammar (fun _ => true) (fun _ => 0) [mk 6 false (EStar (EOpt (EStr [120%N])))] = false.
Proof. vm_compute; reflexivity. Qed.

(* WHITESPACE reaching itself through the implicit skip of a non-atomic rule:
   WHITESPACE = _{ a }   a = !{ "x"? ~ "y" }   — rejected *)
Example wf_rejects_skip_recursion : forall rank,
  wf_grammar (fun _ => false) rank
    [ mk WS_ID true (ERef 5 None);
      {| r_name := 5; r_silent := false; r_kind := KNonAtomic;
         r_body := ESeq [EOpt (EStr [120%N]); EStr [121%N]] |} ] = false.
Proof.
  intros rank. unfold wf_grammar, wf_rule, ref_lt. cbn -[Nat.ltb].
  destruct (rank 5%N <? rank WS_ID) eqn:A; destruct (rank WS_ID <? rank 5%N) eqn:B; try reflexivity.
  apply Nat.ltb_lt in A. apply Nat.ltb_lt in B. lia.
Qed.

(* ... and it does loop: the check (c) has to count the implicit skip as a left position *)
Example skip_recursion_loops :
  parse [ mk WS_ID true (ERef 5 None);
          {| r_name := 5; r_silent := false; r_kind := KNonAtomic;
             r_body := ESeq [EOpt (EStr [120%N]); EStr [121%N]] |} ] 300 5 [121%N] 0 = Fuel.
Proof. vm_compute; reflexivity. Qed.

Print Assumptions run_terminates.
Print Assumptions parse_terminates.
