(* SpecNoErr.v — when every rule reference in the grammar is defined, the reference
   semantics never returns Err. *)
From Coq Require Import List.
Import ListNotations.
From PP Require Import Syntax Spec SpecSyn.

Section NoErr.
Variable g : grammar.
Notation RD := (ref_defined g).
Hypothesis Hg : all_grammar RD g = true.

Definition noerr_at (f : nat) : Prop :=
  forall c t s, all_task RD t = true -> run g f c t s <> Err.

Lemma skip_noerr f : noerr_at f -> forall c s,
  skip_with g (fun c' e' => run g f c' (TEval e')) c s <> Err.
Proof.
  intros IH c s. apply skip_with_case; [discriminate|].
  intros e E. apply IH. revert E.
  (* `has_ws g` and `RD (ERef WS_ID None)` are the same test of `lookup g WS_ID` *)
  apply skip_expr_all; try reflexivity; intros H; exact H.
Qed.

Lemma noerr_all : forall f, noerr_at f.
Proof.
  induction f as [|f IH]; intros c t s Ht; [discriminate|].
  assert (IHk := skip_noerr f IH).
  destruct t as [e|es|es|e]; cbn [all_task] in Ht.
  - destruct (unroll e) as [t|] eqn:U.
    { rewrite (run_unroll g e t U). apply IH. revert U Ht. apply all_task_unroll; reflexivity. }
    destruct (terminal e) eqn:L.
    { assert (R := run_terminal g e L f c s). intros E. rewrite E in R. exact R. }
    destruct e; try discriminate; cbn [run]; cbn [all_sub] in Ht;
      apply andb_prop in Ht; destruct Ht as [Hp Ht].
    + cbn [ref_defined] in Hp. destruct (lookup g n) as [r|] eqn:EL; [|discriminate].
      next_run IH IHk R; try discriminate; [|exact (R (all_grammar_lookup RD g n r Hg EL))].
      destruct (finish_rule _ _ _ _ _). discriminate.
    + (* EOpt *) next_run IH IHk R; try discriminate. exact (R Ht).
    + (* EStar *) next_run IH IHk R1; try discriminate; [|exact (R1 Ht)].
      next_run IH IHk R2; try discriminate. exact (R2 Ht).
    + (* EAnd *) next_run IH IHk R; try discriminate. exact (R Ht).
    + (* ENot *) next_run IH IHk R; try discriminate. exact (R Ht).
    + (* EGrp *) next_run IH IHk R; try discriminate. exact (R Ht).
    + (* EPush *) next_run IH IHk R; try discriminate. exact (R Ht).
  - cbn [run]. destruct es as [|e1 es']; [discriminate|].
    cbn [all_list forallb] in Ht. apply andb_prop in Ht. destruct Ht as [H1 H2].
    next_run IH IHk R1; try discriminate; [|exact (R1 H1)].
    destruct es' as [|e2 es'']; [discriminate|].
    next_run IH IHk R2; try discriminate; [|exact R2].
    next_run IH IHk R3; try discriminate. exact (R3 H2).
  - cbn [run]. destruct es as [|e1 es']; [discriminate|].
    cbn [all_list forallb] in Ht. apply andb_prop in Ht. destruct Ht as [H1 H2].
    next_run IH IHk R1; try discriminate; [|exact (R1 H1)].
    apply IH. exact H2.
  - cbn [run].
    next_run IH IHk R1; try discriminate; [|exact R1].
    next_run IH IHk R2; try discriminate; [|exact (R2 Ht)].
    next_run IH IHk R3; try discriminate. exact (R3 Ht).
Qed.

Theorem parse_no_err : forall f rule input k,
  (exists r, lookup g rule = Some r) -> parse g f rule input k <> Err.
Proof.
  intros f rule input k [r Hr]. unfold parse, eval. apply noerr_all.
  cbn. rewrite Hr. reflexivity.
Qed.

End NoErr.
