From Coq Require Import List ZArith Bool Lia.
Import ListNotations.
From PP Require Import Base Syntax Spec SpecSyn SpecLaws SpecEquiv Grammars JsonComplete.

(* JsonPrefix.v — a JSON document (top level array or object) written without trailing whitespace
   is not accepted by examples/json/json.pest (json_grammar) when it is cut short.

   A scanner over texts keeps a mode (outside a string / inside / after a backslash inside) and the
   number of open brackets, an integer, so that scanning is a monoid morphism and needs no error
   state.  The grammar: by combinators "whatever task t consumes satisfies P", indexed by a fuel
   bound, what value, pair, string and the implicit skip consume is balanced, so an accepted text
   is balanced and not blank.  The renderings: every proper non-empty prefix of a top-level value
   ends inside a string or with an unclosed bracket. *)

Open Scope N_scope.

Definition proper_prefix (p t : text) : Prop := exists q, q <> [] /\ t = p ++ q.

Inductive mode := MOut | MStr | MEsc.

(* code points:  34 quote   92 backslash   91 [   93 ]   123 {   125 } *)
Definition opens (c : N) : bool := (c =? 91) || (c =? 123).
Definition closes (c : N) : bool := (c =? 93) || (c =? 125).

(* next mode *)
Definition nm (m : mode) (c : N) : mode :=
  match m with
  | MOut => if c =? 34 then MStr else MOut
  | MStr => if c =? 34 then MOut else if c =? 92 then MEsc else MStr
  | MEsc => MStr
  end.

(* change of the bracket depth *)
Definition dl (m : mode) (c : N) : Z :=
  match m with
  | MOut => if opens c then 1%Z else if closes c then (-1)%Z else 0%Z
  | _ => 0%Z
  end.

Fixpoint endm (t : text) (m : mode) : mode :=
  match t with [] => m | c :: t' => endm t' (nm m c) end.

Fixpoint depth (t : text) (m : mode) : Z :=
  match t with [] => 0%Z | c :: t' => (dl m c + depth t' (nm m c))%Z end.

Lemma endm_app a : forall b m, endm (a ++ b) m = endm b (endm a m).
Proof. induction a as [|c a IH]; intros b m; cbn [app endm]; [reflexivity|apply IH]. Qed.

Lemma depth_app a : forall b m, depth (a ++ b) m = (depth a m + depth b (endm a m))%Z.
Proof.
  induction a as [|c a IH]; intros b m; cbn [app endm depth]; [reflexivity|].
  rewrite IH. lia.
Qed.

(* scanning x from mode m ends in mode m' and changes the depth by k *)
Definition tr (m : mode) (k : Z) (m' : mode) (x : text) : Prop := endm x m = m' /\ depth x m = k.

Lemma tr_nil m : tr m 0 m [].
Proof. split; reflexivity. Qed.

Lemma tr_app m1 k1 m2 k2 m3 a b : tr m1 k1 m2 a -> tr m2 k2 m3 b -> tr m1 (k1 + k2) m3 (a ++ b).
Proof.
  intros [A1 A2] [B1 B2]. split.
  - rewrite endm_app, A1. exact B1.
  - rewrite depth_app, A1, A2, B2. reflexivity.
Qed.

Definition bal (x : text) : Prop := tr MOut 0 MOut x.   (* balanced, seen from outside a string *)
Definition in_string (x : text) : Prop := tr MStr 0 MStr x.

Lemma bal_nil : bal []. Proof. apply tr_nil. Qed.
Lemma bal_app a b : bal a -> bal b -> bal (a ++ b).
Proof. intros A B. exact (tr_app _ _ _ _ _ _ _ A B). Qed.
Lemma in_string_nil : in_string []. Proof. apply tr_nil. Qed.
Lemma in_string_app a b : in_string a -> in_string b -> in_string (a ++ b).
Proof. intros A B. exact (tr_app _ _ _ _ _ _ _ A B). Qed.

(* characters that are neutral outside (O, s) / inside (I, i) a string *)
Definition plainO (c : N) : bool := negb (c =? 34) && negb (opens c) && negb (closes c).
Definition plainI (c : N) : bool := negb (c =? 34) && negb (c =? 92).
Definition pls (x : text) : Prop := forallb plainO x = true.
Definition pli (x : text) : Prop := forallb plainI x = true.

Lemma pls_nil : pls []. Proof. reflexivity. Qed.
Lemma pls_app a b : pls a -> pls b -> pls (a ++ b).
Proof. unfold pls. intros A B. rewrite forallb_app, A, B. reflexivity. Qed.
Lemma pli_nil : pli []. Proof. reflexivity. Qed.
Lemma pli_app a b : pli a -> pli b -> pli (a ++ b).
Proof. unfold pli. intros A B. rewrite forallb_app, A, B. reflexivity. Qed.

Lemma plainO_nm c : plainO c = true -> nm MOut c = MOut /\ dl MOut c = 0%Z.
Proof.
  unfold plainO, nm, dl. destruct (c =? 34); destruct (opens c); destruct (closes c); cbn;
    intros H; try discriminate H; split; reflexivity.
Qed.

Lemma plainI_nm c : plainI c = true -> nm MStr c = MStr.
Proof.
  unfold plainI, nm. destruct (c =? 34); destruct (c =? 92); cbn; intros H; try discriminate H; reflexivity.
Qed.

Lemma pls_bal x : pls x -> bal x.
Proof.
  unfold pls, bal, tr. induction x as [|c x IH]; cbn [forallb endm depth]; intros H; [split; reflexivity|].
  apply andb_prop in H. destruct H as [Hc Hx]. destruct (plainO_nm c Hc) as [E1 E2].
  rewrite E1, E2. destruct (IH Hx) as [A B]. split; [exact A|rewrite B; reflexivity].
Qed.

Lemma pli_in_string x : pli x -> in_string x.
Proof.
  unfold pli, in_string, tr. induction x as [|c x IH]; cbn [forallb endm depth dl]; intros H; [split; reflexivity|].
  apply andb_prop in H. destruct H as [Hc Hx]. rewrite (plainI_nm c Hc).
  destruct (IH Hx) as [A B]. split; [exact A|rewrite B; reflexivity].
Qed.

Lemma ws_plainO c : is_ws c = true -> plainO c = true.
Proof. intros H. destruct (is_ws_cases c H) as [->|[->|[->| ->]]]; reflexivity. Qed.

Lemma ws_pls w : ws w -> pls w.
Proof. apply forallb_imp. exact ws_plainO. Qed.

Lemma ws_bal w : ws w -> bal w.
Proof. intros H. apply pls_bal, ws_pls, H. Qed.

(* a range above the quote and below [ is plain outside a string; inside, only the quote and
   the backslash are not *)
Lemma range_plainO a b d : 35 <= a -> b <= 90 -> (N.leb a d && N.leb d b)%bool = true -> plainO d = true.
Proof.
  intros A B H. apply andb_prop in H. destruct H as [H1 H2]. apply N.leb_le in H1, H2.
  unfold plainO, opens, closes. rewrite !(proj2 (N.eqb_neq _ _)) by lia. reflexivity.
Qed.

Lemma range_plainI a b d : (35 <= a /\ b <= 91) \/ 93 <= a ->
  (N.leb a d && N.leb d b)%bool = true -> plainI d = true.
Proof.
  intros A H. apply andb_prop in H. destruct H as [H1 H2]. apply N.leb_le in H1, H2.
  unfold plainI. rewrite !(proj2 (N.eqb_neq _ _)) by lia. reflexivity.
Qed.

Lemma hex_plainI d : is_hex d = true -> plainI d = true.
Proof.
  unfold is_hex, is_digit. intros H. apply orb_prop in H.
  destruct H as [H|H]; [apply orb_prop in H; destruct H as [H|H]|]; revert H; apply range_plainI; lia.
Qed.

(* a matching pair: [ ] or { } *)
Definition brackets (o cl : N) : Prop := (o = 91 /\ cl = 93) \/ (o = 123 /\ cl = 125).

Lemma brackets_sq : brackets 91 93. Proof. left. split; reflexivity. Qed.
Lemma brackets_cu : brackets 123 125. Proof. right. split; reflexivity. Qed.

Lemma brackets_tr o cl : brackets o cl -> tr MOut 1 MOut [o] /\ tr MOut (-1) MOut [cl].
Proof. intros [[-> ->]|[-> ->]]; repeat split. Qed.

Lemma bal_bracketed o cl y : brackets o cl -> bal y -> bal (o :: y ++ [cl]).
Proof.
  intros Hoc By. destruct (brackets_tr o cl Hoc) as [A B].
  exact (tr_app _ _ _ _ _ _ _ A (tr_app _ _ _ _ _ _ _ By B)).
Qed.

Lemma bal_quoted xi : in_string xi -> bal (34 :: xi ++ [34]).
Proof.
  intros H. exact (tr_app MOut 0 MStr 0 MOut [34] _ (conj eq_refl eq_refl)
                     (tr_app MStr 0 MStr 0 MOut xi [34] H (conj eq_refl eq_refl))).
Qed.

(* whatever task t consumes in context c, with any fuel up to n, satisfies P; P is told the
   consumed text and the text that remains *)
Definition eats (n : nat) (c : ctx) (t : task) (P : text -> text -> Prop) : Prop :=
  forall f s s' ps, (f <= n)%nat -> run G f c t s = Ok s' ps ->
    exists x, s_rest s = x ++ s_rest s' /\ P x (s_rest s').

Definition sk_eats (n : nat) (c : ctx) (P : text -> Prop) : Prop :=
  forall f s s' ps, (f <= n)%nat ->
    skip_with G (fun c' e' => run G f c' (TEval e')) c s = Ok s' ps ->
    exists x, s_rest s = x ++ s_rest s' /\ P x.

Lemma eats_weaken n c t (P Q : text -> text -> Prop) :
  eats n c t P -> (forall x r, P x r -> Q x r) -> eats n c t Q.
Proof.
  intros H HPQ f s s' ps Hf E. destruct (H f s s' ps Hf E) as [x [A B]].
  exists x. split; [exact A|apply HPQ; exact B].
Qed.

Lemma eats_0 c t P : eats 0 c t P.
Proof. intros f s s' ps Hf E. assert (f = 0%nat) by lia. subst f. discriminate E. Qed.

Lemma eats_str n c lit : eats n c (TEval (EStr lit)) (fun x _ => x = lit).
Proof.
  intros f s s' ps Hf H. destruct f as [|f]; [discriminate H|]. cbn [run] in H.
  destruct (strip_prefix lit (s_rest s)) as [r|] eqn:E; [|discriminate H].
  inversion H; subst. cbn [adv s_rest]. exists lit. split; [apply strip_prefix_app; exact E|reflexivity].
Qed.

Lemma eats_str_P n c lit (P : text -> text -> Prop) : (forall r, P lit r) -> eats n c (TEval (EStr lit)) P.
Proof. intros H. eapply eats_weaken; [apply eats_str|]. intros x r ->. apply H. Qed.

(* ^"e" *)
Lemma eats_ci_e n c : eats n c (TEval (ECIStr [101])) (fun x _ => x = [101] \/ x = [69]).
Proof.
  intros f s s' ps Hf. destruct f as [|f]; [intros H; discriminate H|]. cbn [run].
  destruct (s_rest s) as [|d r0] eqn:R; cbn [strip_prefix_ci]; [intros H; discriminate H|].
  rewrite ascii_lower_e. destruct ((d =? 101) || (d =? 69))%bool eqn:B; [|intros H; discriminate H].
  intros H. inversion H; subst. cbn [adv s_rest]. exists [d]. split; [reflexivity|].
  apply orb_prop in B. destruct B as [B|B]; apply N.eqb_eq in B; subst d; [left|right]; reflexivity.
Qed.

Lemma eats_range n c a b :
  eats n c (TEval (ERange a b)) (fun x _ => exists d, x = [d] /\ (N.leb a d && N.leb d b)%bool = true).
Proof.
  intros f s s' ps Hf. destruct f as [|f]; [intros H; discriminate H|]. cbn [run].
  destruct (s_rest s) as [|d r0] eqn:R; [intros H; discriminate H|].
  destruct (N.leb a d && N.leb d b)%bool eqn:B; [|intros H; discriminate H].
  intros H. inversion H; subst. cbn [adv s_rest]. exists [d]. split; [reflexivity|].
  exists d. split; [reflexivity|exact B].
Qed.

Lemma eats_any n c : eats n c (TEval EAny) (fun x _ => exists d, x = [d]).
Proof.
  intros f s s' ps Hf. destruct f as [|f]; [intros H; discriminate H|]. cbn [run].
  destruct (s_rest s) as [|d r0] eqn:R; [intros H; discriminate H|].
  intros H. inversion H; subst. cbn [adv s_rest]. exists [d]. split; [reflexivity|].
  exists d. reflexivity.
Qed.

Lemma eats_soi n c : eats n c (TEval ESoi) (fun x _ => x = []).
Proof.
  intros f s s' ps Hf H. destruct f as [|f]; [discriminate H|]. cbn [run] in H.
  destruct (N.eqb (s_pos s) 0); [|discriminate H]. inversion H; subst.
  exists []. split; reflexivity.
Qed.

Lemma eats_eoi n c : eats n c (TEval EEoi) (fun x r => x = [] /\ r = []).
Proof.
  intros f s s' ps Hf H. destruct f as [|f]; [discriminate H|]. cbn [run] in H.
  destruct (s_rest s) as [|d r0] eqn:R; [|discriminate H]. inversion H; subst.
  exists []. rewrite R. repeat split.
Qed.

(* a reference costs one unit of fuel; eats_ref_same forgets that, and every rule but value is
   entered with it *)
Lemma eats_ref n c m tag rl P : lookup G m = Some rl ->
  eats n (rule_ctx c rl) (TEval (r_body rl)) P -> eats (S n) c (TEval (ERef m tag)) P.
Proof.
  intros L HB f s s' ps Hf H. destruct f as [|f]; [discriminate H|]. cbn [run] in H. rewrite L in H.
  destruct (run G f (rule_ctx c rl) (TEval (r_body rl)) (push_tag tag s)) as [s1 kids|t| |] eqn:E;
    try discriminate H.
  destruct (finish_rule c rl (s_pos s) s1 kids) as [s2 ps2] eqn:F. inversion H; subst.
  apply HB in E; [|lia]. destruct E as [x [E1 E2]]. exists x.
  rewrite rest_pop_tag, (rest_finish_rule _ _ _ _ _ _ _ F). rewrite rest_push_tag in E1.
  split; [exact E1|exact E2].
Qed.

Lemma eats_ref_same n c m tag rl P : lookup G m = Some rl ->
  eats n (rule_ctx c rl) (TEval (r_body rl)) P -> eats n c (TEval (ERef m tag)) P.
Proof. intros L HB f s s' ps Hf E. apply (eats_ref n c m tag rl P L HB f s s' ps); [lia|exact E]. Qed.

Lemma eats_unroll n c e t P : unroll e = Some t -> eats n c t P -> eats n c (TEval e) P.
Proof.
  intros U H f s s' ps Hf E. destruct f as [|f]; [discriminate E|]. rewrite (run_unroll G e t U) in E.
  apply (H f s s' ps); [lia|exact E].
Qed.

Lemma eats_seq n c es P : eats n c (TSeq es) P -> eats n c (TEval (ESeq es)) P.
Proof. apply eats_unroll. reflexivity. Qed.

Lemma eats_tseq_nil n c : eats n c (TSeq []) (fun x _ => x = []).
Proof.
  intros f s s' ps Hf E. destruct f as [|f]; [discriminate E|]. cbn [run] in E. inversion E; subst.
  exists []. split; reflexivity.
Qed.

Lemma eats_tseq_one n c e P : eats n c (TEval e) P -> eats n c (TSeq [e]) P.
Proof.
  intros H f s s' ps Hf E. destruct f as [|f]; [discriminate E|]. rewrite seq_last_no_trivia in E.
  apply (H f s s' ps); [lia|exact E].
Qed.

Lemma eats_tseq_cons n c e1 e2 es (P1 : text -> text -> Prop) (Pw : text -> Prop)
  (P2 Q : text -> text -> Prop) :
  eats n c (TEval e1) P1 -> sk_eats n c Pw -> eats n c (TSeq (e2 :: es)) P2 ->
  (forall x1 w x2 r, P1 x1 (w ++ x2 ++ r) -> Pw w -> P2 x2 r -> Q (x1 ++ w ++ x2) r) ->
  eats n c (TSeq (e1 :: e2 :: es)) Q.
Proof.
  intros H1 Hk H2 HQ f s s' ps Hf E. destruct f as [|f]; [discriminate E|].
  rewrite seq_trivia_placement in E.
  destruct (run G f c (TEval e1) s) as [s1 p1|t| |] eqn:E1; try discriminate E.
  destruct (skip_with G _ c s1) as [s2 pw|t| |] eqn:Ek; try discriminate E.
  destruct (run G f c (TSeq (e2 :: es)) s2) as [s3 p3|t| |] eqn:E3; try discriminate E.
  inversion E; subst.
  apply H1 in E1; [|lia]. apply Hk in Ek; [|lia]. apply H2 in E3; [|lia].
  destruct E1 as [x1 [A1 B1]]. destruct Ek as [w [A2 B2]]. destruct E3 as [x2 [A3 B3]].
  exists (x1 ++ w ++ x2). split.
  - rewrite A1, A2, A3, <- !app_assoc. reflexivity.
  - apply HQ; [rewrite <- A3, <- A2; exact B1|exact B2|exact B3].
Qed.

Lemma eats_alt n c es P : Forall (fun e => eats n c (TEval e) P) es -> eats n c (TEval (EAlt es)) P.
Proof.
  intros HF. apply (eats_unroll _ _ _ (TAlt es)); [reflexivity|].
  induction HF as [|e1 es H1 _ IH]; intros f s s' ps Hf E; (destruct f as [|f]; [discriminate E|]); cbn [run] in E.
  - discriminate E.
  - destruct (run G f c (TEval e1) s) as [s1 p1|t| |] eqn:E1; try discriminate E.
    + inversion E; subst. apply (H1 f s s' ps); [lia|exact E1].
    + apply (IH f) in E; [|lia]. exact E.
Qed.

Lemma eats_opt n c e (P : text -> text -> Prop) : eats n c (TEval e) P -> (forall r, P [] r) ->
  eats n c (TEval (EOpt e)) P.
Proof.
  intros H HP f s s' ps Hf E. destruct f as [|f]; [discriminate E|]. cbn [run] in E.
  destruct (run G f c (TEval e) s) as [s1 p1|t| |] eqn:E1; try discriminate E.
  - inversion E; subst. apply (H f s s' ps); [lia|exact E1].
  - inversion E; subst. exists []. split; [reflexivity|apply HP].
Qed.

Lemma eats_grp n c e tag P : eats n c (TEval e) P -> eats n c (TEval (EGrp e tag)) P.
Proof.
  intros H f s s' ps Hf E. destruct f as [|f]; [discriminate E|]. cbn [run] in E.
  destruct (run G f c (TEval e) (push_tag tag s)) as [s1 p1|t| |] eqn:E1; try discriminate E.
  inversion E; subst. apply H in E1; [|lia]. destruct E1 as [x [A B]].
  exists x. rewrite rest_pop_tag. rewrite rest_push_tag in A. split; assumption.
Qed.

Section Monoid.
Variable Q : text -> Prop.
Hypothesis Q_nil : Q [].
Hypothesis Q_app : forall a b, Q a -> Q b -> Q (a ++ b).

Lemma eatsM_tstar n c e : eats n c (TEval e) (fun x _ => Q x) -> sk_eats n c Q ->
  eats n c (TStar e) (fun x _ => Q x).
Proof.
  intros He Hk f. induction f as [|f IH]; intros s s' ps Hf E; [discriminate E|]. cbn [run] in E.
  destruct (skip_with G _ c s) as [s2 pw|t| |] eqn:Ek; try discriminate E.
  destruct (run G f c (TEval e) s2) as [s3 p3|t| |] eqn:E3; try discriminate E.
  - destruct (run G f c (TStar e) s3) as [s4 p4|t| |] eqn:E4; try discriminate E. inversion E; subst.
    apply Hk in Ek; [|lia]. apply He in E3; [|lia]. apply IH in E4; [|lia].
    destruct Ek as [w [A1 B1]]. destruct E3 as [x [A2 B2]]. destruct E4 as [y [A3 B3]].
    exists (w ++ x ++ y). split; [rewrite A1, A2, A3, <- !app_assoc; reflexivity|].
    apply Q_app; [exact B1|apply Q_app; assumption].
  - inversion E; subst. exists []. split; [reflexivity|exact Q_nil].
Qed.

Lemma eatsM_star n c e : eats n c (TEval e) (fun x _ => Q x) -> sk_eats n c Q ->
  eats n c (TEval (EStar e)) (fun x _ => Q x).
Proof.
  intros He Hk f s s' ps Hf E. destruct f as [|f]; [discriminate E|]. cbn [run] in E.
  destruct (run G f c (TEval e) s) as [s1 p1|t| |] eqn:E1; try discriminate E.
  - destruct (run G f c (TStar e) s1) as [s2 p2|t| |] eqn:E2; try discriminate E. inversion E; subst.
    apply He in E1; [|lia]. apply (eatsM_tstar n c e He Hk) in E2; [|lia].
    destruct E1 as [x [A1 B1]]. destruct E2 as [y [A2 B2]].
    exists (x ++ y). split; [rewrite A1, A2, <- app_assoc; reflexivity|apply Q_app; assumption].
  - inversion E; subst. exists []. split; [reflexivity|exact Q_nil].
Qed.

Lemma eatsM_tseq n c es : Forall (fun e => eats n c (TEval e) (fun x _ => Q x)) es -> sk_eats n c Q ->
  eats n c (TSeq es) (fun x _ => Q x).
Proof.
  intros HF Hk. induction es as [|e1 es IH].
  - eapply eats_weaken; [apply eats_tseq_nil|]. intros x r ->. exact Q_nil.
  - inversion HF as [|a l Ha Hl]; subst. destruct es as [|e2 es].
    + apply eats_tseq_one. exact Ha.
    + eapply eats_tseq_cons; [exact Ha|exact Hk|exact (IH Hl)|].
      intros x1 w x2 r A B C. apply Q_app; [exact A|apply Q_app; assumption].
Qed.

Lemma eatsM_seq n c es : Forall (fun e => eats n c (TEval e) (fun x _ => Q x)) es -> sk_eats n c Q ->
  eats n c (TEval (ESeq es)) (fun x _ => Q x).
Proof. intros HF Hk. apply eats_seq. apply eatsM_tseq; assumption. Qed.

Lemma eatsM_plus n c e : eats n c (TEval e) (fun x _ => Q x) -> sk_eats n c Q ->
  eats n c (TEval (EPlus e)) (fun x _ => Q x).
Proof.
  intros He Hk. apply (eats_unroll _ _ _ (TSeq [e; EStar e])); [reflexivity|]. apply eatsM_tseq; [|exact Hk].
  apply Forall_cons; [exact He|]. apply Forall_cons; [|apply Forall_nil].
  apply eatsM_star; assumption.
Qed.

Lemma eatsM_repn n c e k : eats n c (TEval e) (fun x _ => Q x) -> sk_eats n c Q ->
  eats n c (TEval (ERepN e k)) (fun x _ => Q x).
Proof.
  intros He Hk. apply (eats_unroll _ _ _ (TSeq (repeat e k))); [reflexivity|]. apply eatsM_tseq; [|exact Hk].
  apply Forall_forall. intros a Ha. apply repeat_spec in Ha. subst a. exact He.
Qed.

Lemma eatsM_opt n c e : eats n c (TEval e) (fun x _ => Q x) -> eats n c (TEval (EOpt e)) (fun x _ => Q x).
Proof. intros He. apply eats_opt; [exact He|]. intros r. exact Q_nil. Qed.

End Monoid.

Lemma skip_at n c (Q : text -> Prop) : c_atom c <> NonAtomic -> Q [] -> sk_eats n c Q.
Proof.
  intros Hc Q0 f s s' ps Hf E. rewrite (atomic_no_trivia G _ c s Hc) in E. inversion E; subst.
  exists []. split; [reflexivity|exact Q0].
Qed.

Lemma ws_rule n c : eats n c (TEval (ERef 0 None)) (fun x _ => ws x).
Proof.
  eapply eats_ref_same; [exact lk_ws|]. cbn [r_body mkrule]. unfold ws_body. apply eats_alt.
  repeat (apply Forall_cons; [apply eats_str_P; intros r; reflexivity|]). apply Forall_nil.
Qed.

(* in an atomic context nothing is skipped, in a non-atomic one whitespace: balanced either way *)
Lemma skip_bal n c : sk_eats n c bal.
Proof.
  destruct (c_atom c) eqn:Hc; [|apply skip_at; [rewrite Hc; discriminate|exact bal_nil]..].
  intros f s s' ps Hf E. unfold skip_with in E. rewrite Hc, json_skip in E.
  assert (K : eats n (skip_ctx c) (TEval (EStar (ERef 0 None))) (fun x _ => bal x)).
  { apply (eatsM_star bal bal_nil bal_app); [|apply skip_at; [cbn; discriminate|exact bal_nil]].
    eapply eats_weaken; [apply ws_rule|]. intros x r. apply ws_bal. }
  destruct (K f s s' ps Hf E) as [x [A B]]. exists x. split; assumption.
Qed.

(* digit, nzdigit *)
Lemma range_rule n c m a b : lookup G m = Some (mkrule m true KNormal (ERange a b)) ->
  35 <= a -> b <= 90 -> eats n c (TEval (ERef m None)) (fun x _ => pls x).
Proof.
  intros L A B. eapply eats_ref_same; [exact L|]. cbn [r_body mkrule].
  eapply eats_weaken; [apply eats_range|]. intros x r [d [-> H]].
  unfold pls. cbn [forallb]. rewrite andb_true_r. apply (range_plainO a b); assumption.
Qed.

(* for an expression built from literals, ^"e", the rules digit (10) and nzdigit (9) and the
   regular operators; a literal is plain by computing plainO over its characters *)
Ltac plain_expr K :=
  lazymatch goal with
  | |- eats _ _ (TEval (ESeq _)) _ => apply (eatsM_seq pls pls_nil pls_app); [plain_exprs K|exact K]
  | |- eats _ _ (TEval (EAlt _)) _ => apply eats_alt; plain_exprs K
  | |- eats _ _ (TEval (EOpt _)) _ => apply (eatsM_opt pls pls_nil); plain_expr K
  | |- eats _ _ (TEval (EStar _)) _ => apply (eatsM_star pls pls_nil pls_app); [plain_expr K|exact K]
  | |- eats _ _ (TEval (EPlus _)) _ => apply (eatsM_plus pls pls_nil pls_app); [plain_expr K|exact K]
  | |- eats _ _ (TEval (EGrp _ _)) _ => apply eats_grp; plain_expr K
  | |- eats _ _ (TEval (EStr _)) _ => apply eats_str_P; intros ?; reflexivity
  | |- eats _ _ (TEval (ECIStr _)) _ =>
      eapply eats_weaken; [apply eats_ci_e|]; intros ? ? [->| ->]; reflexivity
  | |- eats _ _ (TEval (ERef 10 None)) _ => apply (range_rule _ _ 10 48 57 lk_digit); lia
  | |- eats _ _ (TEval (ERef 9 None)) _ => apply (range_rule _ _ 9 49 57 lk_nzdigit); lia
  end
with plain_exprs K :=
  lazymatch goal with
  | |- Forall _ [] => apply Forall_nil
  | |- Forall _ (_ :: _) => apply Forall_cons; [cbv beta; plain_expr K|plain_exprs K]
  end.

Lemma number_rule n c : eats n c (TEval (ERef 8 None)) (fun x _ => pls x).
Proof.
  eapply eats_ref_same; [exact lk_number|]. cbn [r_body mkrule].
  set (c1 := rule_ctx c _).
  assert (K : sk_eats n c1 pls) by (apply skip_at; [cbn; discriminate|exact pls_nil]).
  unfold number_body, e_int, e_frac, e_exp, e_sign, e_digit. plain_expr K.
Qed.

Lemma null_rule n c : eats n c (TEval (ERef 16 None)) (fun x _ => pls x).
Proof.
  eapply eats_ref_same; [exact lk_null|]. cbn [r_body mkrule]. apply eats_str_P. intros r. reflexivity.
Qed.

Lemma boolean_rule n c : eats n c (TEval (ERef 17 None)) (fun x _ => pls x).
Proof.
  eapply eats_ref_same; [exact lk_boolean|]. cbn [r_body mkrule]. unfold boolean_body. apply eats_alt.
  repeat (apply Forall_cons; [apply eats_str_P; intros r; reflexivity|]). apply Forall_nil.
Qed.

Lemma any_rule n c : eats n c (TEval (ERef 12 None)) (fun x _ => exists d, x = [d]).
Proof. eapply eats_ref_same; [exact lk_any|]. cbn [r_body mkrule]. apply eats_any. Qed.

Lemma hex_rule n c : eats n c (TEval (ERef 13 None)) (fun x _ => pli x).
Proof.
  eapply eats_ref_same; [exact lk_hex|]. cbn [r_body mkrule]. unfold hex_body. apply eats_alt.
  repeat (apply Forall_cons;
    [eapply eats_weaken; [apply eats_range|]; intros x r [d [-> H]];
     unfold pli; cbn [forallb]; rewrite andb_true_r; revert H; apply range_plainI; lia|]).
  apply Forall_nil.
Qed.

Definition plain_next (r : text) : Prop := strip_prefix [34] r = None /\ strip_prefix [92] r = None.

Lemma str_fails c lit s t : evals G c (EStr lit) s (Fail t) -> strip_prefix lit (s_rest s) = None.
Proof.
  intros [f [E _]]. destruct f as [|f]; [discriminate E|]. cbn [run] in E.
  destruct (strip_prefix lit (s_rest s)); [discriminate E|reflexivity].
Qed.

(* by the fuel-free characterisations of SpecEquiv: with the fuel it would take an unfolding of
   `run` for each of ENot, EGrp, EAlt, TAlt and EStr *)
Lemma notq_rule n c : eats n c (TEval e_notq) (fun x r => x = [] /\ plain_next r).
Proof.
  intros f s s' ps Hf E.
  assert (H : evals G c e_notq s (Ok s' ps)) by (exists f; split; [exact E|discriminate]).
  apply evals_not in H. destruct H as [x [Hx Er]].
  apply evals_alt2 in Hx. destruct Hx as [y [Hy K]].
  (* Fnot makes an Ok only of a failure x of the choice ... *)
  destruct x as [s2 p2|t2| |]; try discriminate Er. cbn [Fnot] in Er. inversion Er; subst.
  (* ... and the choice fails only if its first alternative fails and then the second *)
  destruct y as [s1 p1|t1| |]; try discriminate K.
  exists []. split; [reflexivity|]. split; [reflexivity|].
  split; [exact (str_fails _ _ _ _ Hy)|exact (str_fails _ _ _ _ K)].
Qed.

Lemma plain_next_plainI d r : plain_next (d :: r) -> plainI d = true.
Proof.
  unfold plain_next, plainI. cbn [strip_prefix]. intros [A B].
  rewrite (N.eqb_sym d 34), (N.eqb_sym d 92).
  destruct (34 =? d); [discriminate A|]. destruct (92 =? d); [discriminate B|]. reflexivity.
Qed.

Lemma char_rule n c : c_atom c <> NonAtomic -> eats n c (TEval (ERef 11 None)) (fun x _ => in_string x).
Proof.
  intros Hc. eapply eats_ref_same; [exact lk_char|]. cbn [r_body mkrule].
  set (c1 := rule_ctx c _).
  assert (Hc1 : c_atom c1 <> NonAtomic).
  { unfold c1. rewrite rule_ctx_atom_normal by reflexivity. exact Hc. }
  assert (K := skip_at n c1 (fun x => x = []) Hc1 eq_refl).
  unfold char_body. apply eats_alt.
  apply Forall_cons; [|apply Forall_cons; [|apply Forall_cons; [|apply Forall_nil]]].
  - apply eats_seq. eapply eats_tseq_cons; [apply notq_rule|exact K|apply eats_tseq_one; apply any_rule|].
    intros x1 w x2 r [-> Hq] -> [d ->]. cbn [app] in *.
    apply pli_in_string. unfold pli. cbn [forallb]. rewrite (plain_next_plainI d r Hq). reflexivity.
  - apply eats_seq. eapply eats_tseq_cons with (P2 := fun x _ => exists d, x = [d]);
      [apply eats_str|exact K|apply eats_tseq_one|].
    + unfold e_escs. apply eats_grp. apply eats_alt.
      repeat (apply Forall_cons; [apply eats_str_P; intros r; eexists; reflexivity|]).
      apply Forall_nil.
    + intros x1 w x2 r -> -> [d ->]. cbn [app]. split; reflexivity.
  - apply eats_seq. eapply eats_tseq_cons with (P2 := fun x _ => exists hs, x = 117 :: hs /\ pli hs);
      [apply eats_str|exact K|apply eats_tseq_one|].
    + unfold e_uni. apply eats_grp. apply eats_seq.
      eapply eats_tseq_cons with (P2 := fun x _ => pli x); [apply eats_str|exact K|apply eats_tseq_one|].
      * apply (eatsM_repn pli pli_nil pli_app); [apply hex_rule|apply skip_at; [exact Hc1|exact pli_nil]].
      * intros x1 w x2 r -> -> H. cbn [app]. exists x2. split; [reflexivity|exact H].
    + intros x1 w x2 r -> -> [hs [-> H]].
      exact (tr_app MStr 0 MStr 0 MStr [92; 117] hs (conj eq_refl eq_refl) (pli_in_string hs H)).
Qed.

Lemma inner_rule n c : eats n c (TEval (ERef 14 None)) (fun x _ => in_string x).
Proof.
  eapply eats_ref_same; [exact lk_inner|]. cbn [r_body mkrule].
  set (c1 := rule_ctx c _).
  assert (Hc1 : c_atom c1 <> NonAtomic) by (cbn; discriminate).
  unfold inner_body. apply (eatsM_star in_string in_string_nil in_string_app); [apply char_rule; exact Hc1|].
  apply skip_at; [exact Hc1|exact in_string_nil].
Qed.

Lemma string_rule n c : eats n c (TEval (ERef 15 None)) (fun x _ => bal x).
Proof.
  eapply eats_ref_same; [exact lk_string|]. cbn [r_body mkrule].
  set (c1 := rule_ctx c _).
  assert (K : sk_eats n c1 (fun x => x = [])) by (apply skip_at; [cbn; discriminate|reflexivity]).
  unfold string_body. apply eats_seq.
  eapply eats_tseq_cons with (P2 := fun x _ => exists xi, x = xi ++ [34] /\ in_string xi);
    [apply eats_str|exact K| |].
  - eapply eats_tseq_cons; [apply inner_rule|exact K|apply eats_tseq_one; apply eats_str|].
    intros x1 w x2 r H -> ->. exists x1. split; [reflexivity|exact H].
  - intros x1 w x2 r -> -> [xi [-> H]]. cbn [app]. apply bal_quoted. exact H.
Qed.

Definition bal_nonblank (x : text) : Prop := bal x /\ forallb is_ws x = false.

Lemma bracketed_nonblank o cl y : brackets o cl -> bal y -> bal_nonblank (o :: y ++ [cl]).
Proof.
  intros Hoc By. split; [apply bal_bracketed; assumption|].
  destruct Hoc as [[-> _]|[-> _]]; reflexivity.
Qed.

Lemma nonblank_app_l w b : bal w -> bal_nonblank b -> bal_nonblank (w ++ b).
Proof. intros Hw [Hb Hn]. split; [apply bal_app; assumption|]. rewrite forallb_app, Hn. apply andb_false_r. Qed.

Lemma nonblank_app_r b w : bal_nonblank b -> bal w -> bal_nonblank (b ++ w).
Proof. intros [Hb Hn] Hw. split; [apply bal_app; assumption|]. rewrite forallb_app, Hn. reflexivity. Qed.

(* the cycle value -> array / object -> (pair ->) value is cut at the reference to value, the one
   place where eats_ref lowers the bound: from value up to n, pair, object and array up to n *)
Definition level (n : nat) : Prop := forall c, eats n c (TEval (ERef 18 None)) (fun x _ => bal x).

Section Level.
Variable n : nat.

Lemma more_rule k : (forall c, eats n c (TEval (ERef k None)) (fun x _ => bal x)) ->
  forall c, eats n c (TEval (e_more k)) (fun x _ => bal x).
Proof.
  intros Hk c. unfold e_more. apply eats_grp. apply (eatsM_seq bal bal_nil bal_app); [|apply skip_bal].
  apply Forall_cons; [apply eats_str_P; intros r; apply pls_bal; reflexivity|].
  apply Forall_cons; [apply Hk|apply Forall_nil].
Qed.

Lemma coll_rule m k o cl : lookup G m = Some (mkrule m false KNormal (coll_body k o cl)) -> brackets o cl ->
  (forall c, eats n c (TEval (ERef k None)) (fun x _ => bal x)) ->
  forall c, eats n c (TEval (ERef m None)) (fun x _ => bal_nonblank x).
Proof.
  intros L Hoc Hk c. eapply eats_ref_same; [exact L|]. cbn [r_body mkrule].
  set (c1 := rule_ctx c _). assert (K := skip_bal n c1).
  unfold coll_body. apply eats_alt.
  apply Forall_cons; [|apply Forall_cons; [|apply Forall_nil]].
  - apply eats_seq. eapply eats_tseq_cons; [apply eats_str|exact K|apply eats_tseq_one; apply eats_str|].
    intros x1 w x2 r -> Hw ->. cbn [app]. apply bracketed_nonblank; assumption.
  - apply eats_seq.
    eapply eats_tseq_cons with (P2 := fun x _ => exists y, x = y ++ [cl] /\ bal y);
      [apply eats_str|exact K| |].
    + eapply eats_tseq_cons with (P2 := fun x _ => exists y, x = y ++ [cl] /\ bal y);
        [apply Hk|exact K| |].
      * eapply eats_tseq_cons; [|exact K|apply eats_tseq_one; apply eats_str|].
        -- apply (eatsM_star bal bal_nil bal_app); [apply more_rule; exact Hk|exact K].
        -- intros x1 w x2 r H Hw ->. exists (x1 ++ w). split; [rewrite <- app_assoc; reflexivity|].
           apply bal_app; assumption.
      * intros x1 w x2 r H Hw [y [-> Hy]]. exists (x1 ++ w ++ y).
        split; [rewrite <- !app_assoc; reflexivity|].
        apply bal_app; [exact H|]. apply bal_app; assumption.
    + intros x1 w x2 r -> Hw [y [-> Hy]].
      replace ([o] ++ w ++ y ++ [cl]) with (o :: (w ++ y) ++ [cl]) by (rewrite <- !app_assoc; reflexivity).
      apply bracketed_nonblank; [exact Hoc|]. apply bal_app; assumption.
Qed.

Hypothesis V : level n.

Lemma pair_rule c : eats n c (TEval (ERef 19 None)) (fun x _ => bal x).
Proof.
  eapply eats_ref_same; [exact lk_pair|]. cbn [r_body mkrule].
  apply (eatsM_seq bal bal_nil bal_app); [|apply skip_bal].
  apply Forall_cons; [apply string_rule|].
  apply Forall_cons; [apply eats_str_P; intros r; apply pls_bal; reflexivity|].
  apply Forall_cons; [apply V|apply Forall_nil].
Qed.

Lemma object_rule c : eats n c (TEval (ERef 6 None)) (fun x _ => bal_nonblank x).
Proof. apply (coll_rule 6 19 123 125 lk_object brackets_cu pair_rule). Qed.

Lemma array_rule c : eats n c (TEval (ERef 7 None)) (fun x _ => bal_nonblank x).
Proof. apply (coll_rule 7 18 91 93 lk_array brackets_sq V). Qed.

End Level.

Theorem value_level : forall n, level n.
Proof.
  induction n as [|n IH]; intros c; [apply eats_0|].
  eapply eats_ref; [exact lk_value|]. cbn [r_body mkrule]. unfold value_body. apply eats_alt.
  apply Forall_cons; [eapply eats_weaken; [apply object_rule; exact IH|]; intros x r [H _]; exact H|].
  apply Forall_cons; [eapply eats_weaken; [apply array_rule; exact IH|]; intros x r [H _]; exact H|].
  apply Forall_cons; [apply string_rule|].
  apply Forall_cons; [eapply eats_weaken; [apply number_rule|]; intros x r; apply pls_bal|].
  apply Forall_cons; [eapply eats_weaken; [apply boolean_rule|]; intros x r; apply pls_bal|].
  apply Forall_cons; [eapply eats_weaken; [apply null_rule|]; intros x r; apply pls_bal|].
  apply Forall_nil.
Qed.

Theorem value_balanced : forall f c s s' ps, c_atom c = NonAtomic ->
  run G f c (TEval (ERef 18 None)) s = Ok s' ps -> exists x, s_rest s = x ++ s_rest s' /\ bal x.
Proof.
  intros f c s s' ps _ E. exact (value_level f c f s s' ps (le_n f) E).
Qed.

Theorem string_balanced : forall f c s s' ps,
  run G f c (TEval (ERef 15 None)) s = Ok s' ps -> exists x, s_rest s = x ++ s_rest s' /\ bal x.
Proof. intros f c s s' ps E. exact (string_rule f c f s s' ps (le_n f) E). Qed.

Theorem number_plain : forall f c s s' ps,
  run G f c (TEval (ERef 8 None)) s = Ok s' ps -> exists x, s_rest s = x ++ s_rest s' /\ pls x.
Proof. intros f c s s' ps E. exact (number_rule f c f s s' ps (le_n f) E). Qed.

(* json = SOI (object | array) EOI, with implicit whitespace in between *)
Lemma json_rule n : eats n ctx0 (TEval (ERef 4 None)) (fun x r => r = [] /\ bal_nonblank x).
Proof.
  eapply eats_ref_same; [exact lk_json|]. cbn [r_body mkrule].
  set (c1 := rule_ctx ctx0 _). assert (K := skip_bal n c1).
  unfold json_body. apply eats_seq.
  eapply eats_tseq_cons with (P2 := fun x r => r = [] /\ bal_nonblank x);
    [eapply eats_ref_same; [exact lk_soi|]; apply eats_soi|exact K| |].
  - eapply eats_tseq_cons with (P1 := fun x _ => bal_nonblank x); [|exact K|apply eats_tseq_one| ].
    + apply eats_grp. apply eats_alt.
      apply Forall_cons; [apply object_rule; apply value_level|].
      apply Forall_cons; [apply array_rule; apply value_level|]. apply Forall_nil.
    + eapply eats_ref_same; [exact lk_eoi|]. apply eats_eoi.
    + intros x1 w x2 r Hb Hw [-> ->]. split; [reflexivity|]. rewrite app_nil_r. apply nonblank_app_r; assumption.
  - intros x1 w x2 r -> Hw [-> Hb]. split; [reflexivity|]. apply (nonblank_app_l w x2); assumption.
Qed.

Theorem accepted_balanced : forall f p s tree,
  parse json_grammar f json_grammar_start p 0 = Ok s tree ->
  bal p /\ forallb is_ws p = false.
Proof.
  intros f p s tree H.
  destruct (json_rule f f (st0 p 0) s tree (le_n f) H) as [x [E [Er Hb]]].
  cbn [st0 s_rest skipn] in E. rewrite Er, app_nil_r in E. subst x. exact Hb.
Qed.

(* P holds of every state (mode, depth) met while scanning t from (m, d), first and last included *)
Fixpoint allpre (P : mode -> Z -> Prop) (t : text) (m : mode) (d : Z) : Prop :=
  P m d /\ match t with [] => True | c :: t' => allpre P t' (nm m c) (d + dl m c)%Z end.

Lemma allpre_hd P t m d : allpre P t m d -> P m d.
Proof. destruct t; cbn [allpre]; tauto. Qed.

Lemma allpre_app P a : forall b m d,
  allpre P (a ++ b) m d <-> allpre P a m d /\ allpre P b (endm a m) (d + depth a m)%Z.
Proof.
  induction a as [|c a IH]; intros b m d; cbn [app allpre endm depth].
  - rewrite Z.add_0_r. split.
    + intros H. split; [split; [exact (allpre_hd _ _ _ _ H)|exact I]|exact H].
    + tauto.
  - rewrite IH. rewrite Z.add_assoc. tauto.
Qed.

Lemma allpre_mono (P Q : mode -> Z -> Prop) : (forall m d, P m d -> Q m d) ->
  forall t m d, allpre P t m d -> allpre Q t m d.
Proof.
  intros H. induction t as [|c t IH]; intros m d; cbn [allpre].
  - intros [A _]. split; [apply H; exact A|exact I].
  - intros [A B]. split; [apply H; exact A|apply IH; exact B].
Qed.

Definition open_at (k : Z) (m : mode) (d : Z) : Prop := m <> MOut \/ (k <= d)%Z.

(* balanced, and no prefix closes a bracket that was open before *)
Definition nested (x : text) : Prop := bal x /\ forall d, allpre (open_at d) x MOut d.

Lemma nested_nil : nested [].
Proof. split; [exact bal_nil|]. intros d. cbn. split; [right; lia|exact I]. Qed.

Lemma nested_app a b : nested a -> nested b -> nested (a ++ b).
Proof.
  intros [Ba Pa] [Bb Pb]. split; [apply bal_app; assumption|].
  intros d. apply allpre_app. split; [apply Pa|].
  destruct Ba as [E1 E2]. rewrite E1, E2, Z.add_0_r. apply Pb.
Qed.

Lemma nested_lit c : plainO c = true -> nested [c].
Proof.
  intros H. destruct (plainO_nm c H) as [E1 E2]. split.
  - split; cbn [endm depth]; [exact E1|rewrite E2; reflexivity].
  - intros d. cbn [allpre]. rewrite E1, E2, Z.add_0_r. repeat split; right; lia.
Qed.

Lemma pls_nested x : pls x -> nested x.
Proof.
  unfold pls. induction x as [|c x IH]; cbn [forallb]; intros H; [exact nested_nil|].
  apply andb_prop in H. destruct H as [Hc Hx].
  apply (nested_app [c] x); [apply nested_lit; exact Hc|apply IH; exact Hx].
Qed.

Lemma ws_nested w : ws w -> nested w.
Proof. intros H. apply pls_nested, ws_pls, H. Qed.

Lemma nested_bracketed o cl y : brackets o cl -> nested y -> nested (o :: y ++ [cl]).
Proof.
  intros Hoc [By Py]. split; [apply bal_bracketed; assumption|].
  destruct (brackets_tr o cl Hoc) as [[Ho1 Ho2] [Hc1 Hc2]]. cbn [endm depth] in *.
  rewrite Z.add_0_r in Ho2, Hc2. destruct By as [E1 E2].
  intros d. cbn [allpre]. split; [right; lia|]. rewrite Ho1, Ho2.
  apply allpre_app. split.
  - eapply allpre_mono; [|apply (Py (d + 1)%Z)]. intros m d' [A|A]; [left; exact A|right; lia].
  - rewrite E1, E2. cbn [allpre]. split; [right; lia|]. split; [right; rewrite Hc2; lia|exact I].
Qed.

(* holds of every state between the quotes of a string *)
Definition not_out (m : mode) (d : Z) : Prop := m <> MOut.

Lemma not_out_depth t : forall m d, allpre not_out t m d -> depth t m = 0%Z.
Proof.
  induction t as [|c t IH]; intros m d; cbn [allpre depth]; [reflexivity|].
  intros [A B]. rewrite (IH _ _ B). destruct m; [contradiction| |]; reflexivity.
Qed.

Lemma jchar_not_out j : wf_jchar j = true ->
  (forall d, allpre not_out (jchar_text j) MStr d) /\ endm (jchar_text j) MStr = MStr.
Proof.
  destruct j as [c|c|h1 h2 h3 h4]; cbn [wf_jchar jchar_text]; intros H.
  - assert (E : nm MStr c = MStr) by (apply plainI_nm; exact H).
    cbn [allpre endm]. rewrite E. repeat split; discriminate.
  - cbn. repeat split; discriminate.
  - apply andb_prop in H. destruct H as [H H4]. apply andb_prop in H. destruct H as [H H3].
    apply andb_prop in H. destruct H as [H1 H2].
    apply hex_plainI, plainI_nm in H1. apply hex_plainI, plainI_nm in H2.
    apply hex_plainI, plainI_nm in H3. apply hex_plainI, plainI_nm in H4.
    cbn [allpre endm]. change (nm MStr 92) with MEsc. change (nm MEsc 117) with MStr.
    rewrite H1, H2, H3, H4. repeat split; discriminate.
Qed.

Lemma chars_not_out s : forallb wf_jchar s = true ->
  (forall d, allpre not_out (chars_text s) MStr d) /\ endm (chars_text s) MStr = MStr.
Proof.
  induction s as [|j s IH]; cbn [forallb chars_text]; intros H.
  - cbn. repeat split. discriminate.
  - apply andb_prop in H. destruct H as [Hj Hs].
    destruct (jchar_not_out j Hj) as [A1 A2]. destruct (IH Hs) as [B1 B2]. split.
    + intros d. apply allpre_app. split; [apply A1|rewrite A2; apply B1].
    + rewrite endm_app, A2. exact B2.
Qed.

Lemma str_nested s : forallb wf_jchar s = true -> nested (str_text s).
Proof.
  intros H. destruct (chars_not_out s H) as [A B]. unfold str_text. split.
  - apply bal_quoted. split; [exact B|exact (not_out_depth _ _ _ (A 0%Z))].
  - intros d. cbn [allpre]. split; [right; lia|]. change (nm MOut 34) with MStr.
    apply allpre_app. split.
    + eapply allpre_mono; [|apply A]. intros m d' Hm. left. exact Hm.
    + rewrite B, (not_out_depth _ _ _ (A 0%Z)). cbn. split; [left; discriminate|]. split; [right; lia|exact I].
Qed.

(* a number is plain: rule number accepts its rendering (followed by nothing, which is what the
   second eq_refl says), and whatever it accepts is plain *)
Lemma num_pls n : wf_jnum n = true -> pls (num_text n).
Proof.
  intros H. destruct (number_complete ctx0 n [] [] eq_refl H eq_refl trk0) as [t [f [E _]]].
  destruct (number_plain f _ _ _ _ E) as [x [Ex Hx]].
  cbn [mk s_rest] in Ex. rewrite !app_nil_r in Ex. rewrite Ex. exact Hx.
Qed.

(* the separators [44] and [58] go by nested_lit, whose premise computes *)
Create HintDb nested.
#[local] Hint Resolve nested_nil nested_app ws_nested str_nested nested_lit brackets_sq brackets_cu : nested.

Lemma member_nested k wa wb x : forallb wf_jchar k = true -> ws wa -> ws wb -> nested x ->
  nested (member_text k wa wb x).
Proof. intros Hk Hwa Hwb Hx. unfold member_text. auto 8 with nested. Qed.

#[local] Hint Resolve member_nested : nested.

Definition open_inside (x : text) : Prop :=
  forall l q, l <> [] -> q <> [] -> x = l ++ q -> open_at 1 (endm l MOut) (depth l MOut).

Lemma bracketed_open o y cl : brackets o cl -> (forall d, allpre (open_at d) y MOut d) ->
  open_inside (o :: y ++ [cl]).
Proof.
  intros Hoc Py l q Hl Hq E.
  assert (Ho : nm MOut o = MOut /\ dl MOut o = 1%Z) by (destruct Hoc as [[-> _]|[-> _]]; split; reflexivity).
  destruct Ho as [Ho1 Ho2].
  destruct l as [|c l']; [contradiction|]. cbn [app] in E. inversion E as [[Ec E']]. subst c.
  destruct (exists_last Hq) as [q' [z Eq]]. subst q.
  rewrite app_assoc in E'. apply app_inj_tail in E'. destruct E' as [Ey _].
  specialize (Py 1%Z). rewrite Ey in Py. apply allpre_app in Py. destruct Py as [_ Py].
  apply allpre_hd in Py. cbn [endm depth]. rewrite Ho1, Ho2. exact Py.
Qed.

Theorem nested_all :
  (forall v x (r : renders v x), wf_jv v = true ->
     nested x /\ match v with JArr _ | JObj _ => open_inside x | _ => True end) /\
  (forall vs tl (r : renders_tail vs tl), forallb wf_jv vs = true -> nested tl) /\
  (forall ms tl (r : renders_mtail ms tl), forallb wfm ms = true -> nested tl).
Proof.
  assert (Hbr : forall o cl y, brackets o cl -> nested y ->
            nested (o :: y ++ [cl]) /\ open_inside (o :: y ++ [cl])).
  { intros o cl y Hoc Hy. split; [apply nested_bracketed; assumption|].
    apply bracketed_open; [exact Hoc|exact (proj2 Hy)]. }
  apply renders_all.
  - intros _. split; [apply pls_nested; reflexivity|exact I].
  - intros b _. split; [apply pls_nested; destruct b; reflexivity|exact I].
  - intros n Hw. cbn [wf_jv] in Hw. split; [apply pls_nested, num_pls, Hw|exact I].
  - intros s Hw. cbn [wf_jv] in Hw. split; [apply str_nested, Hw|exact I].
  - intros w Hw _. apply Hbr; auto with nested.
  - intros v vs w1 x tl wl Hw1 r IHv rt IHt Hwl Hwf.
    destruct (andb_prop _ _ Hwf) as [Hwf1 Hwf2].
    destruct (IHv Hwf1) as [Hx _]. specialize (IHt Hwf2).
    replace (w1 ++ x ++ tl ++ wl ++ [93]) with ((w1 ++ x ++ tl ++ wl) ++ [93]) by (rewrite <- !app_assoc; reflexivity).
    apply Hbr; auto 8 with nested.
  - intros w Hw _. apply Hbr; auto with nested.
  - intros k v ms w1 wa wb x tl wl Hw1 Hwa Hwb r IHv rt IHt Hwl Hwf.
    destruct (andb_prop _ _ Hwf) as [Hwf1 Hwf2]. destruct (andb_prop _ _ Hwf1) as [Hk Hv].
    destruct (IHv Hv) as [Hx _]. specialize (IHt Hwf2).
    replace (w1 ++ member_text k wa wb x ++ tl ++ wl ++ [125])
      with ((w1 ++ member_text k wa wb x ++ tl ++ wl) ++ [125]) by (rewrite <- !app_assoc; reflexivity).
    apply Hbr; auto 8 with nested.
  - intros _. exact nested_nil.
  - intros v vs w2 w1 x tl Hw2 Hw1 r IHv rt IHt Hwf.
    destruct (andb_prop _ _ Hwf) as [Hwf1 Hwf2].
    destruct (IHv Hwf1) as [Hx _]. specialize (IHt Hwf2). auto 8 with nested.
  - intros _. exact nested_nil.
  - intros k v ms w2 w1 wa wb x tl Hw2 Hw1 Hwa Hwb r IHv rt IHt Hwf.
    destruct (andb_prop _ _ Hwf) as [Hwf1 Hwf2]. destruct (andb_prop _ _ Hwf1) as [Hk Hv].
    destruct (IHv Hv) as [Hx _]. specialize (IHt Hwf2). auto 8 with nested.
Qed.

Theorem renders_prefix_open v x : renders v x -> wf_jv v = true -> top_level v -> open_inside x.
Proof.
  intros Hr Hwf Htop. destruct (proj1 nested_all v x Hr Hwf) as [_ H].
  destruct v; try contradiction; exact H.
Qed.

Lemma prefix_blank_or_open v w1 x : wf_jv v = true -> top_level v -> ws w1 -> renders v x ->
  forall p, proper_prefix p (w1 ++ x) -> ws p \/ open_at 1 (endm p MOut) (depth p MOut).
Proof.
  intros Hwf Htop Hw1 Hr p [q [Hq E]].
  apply app_eq_app in E. destruct E as [l [[E1 E2]|[E1 E2]]].
  - left. rewrite E1 in Hw1. exact (proj1 (ws_app_inv _ _ Hw1)).
  - destruct l as [|c l'].
    + left. rewrite E1, app_nil_r. exact Hw1.
    + right. subst p. destruct (ws_bal w1 Hw1) as [B1 B2].
      rewrite endm_app, depth_app, B1, B2. cbn [Z.add].
      eapply (renders_prefix_open v x Hr Hwf Htop (c :: l') q); [discriminate|exact Hq|exact E2].
Qed.

(* C17: no proper prefix of a document written without trailing whitespace is accepted, whatever
   the fuel: it is blank, or the scanner has left it inside a string or a bracket *)
Theorem json_prefix_rejected : forall v w1 x, wf_jv v = true -> top_level v -> ws w1 -> renders v x ->
  forall p, proper_prefix p (w1 ++ x) ->
  forall f s tree, parse json_grammar f json_grammar_start p 0 <> Ok s tree.
Proof.
  intros v w1 x Hwf Htop Hw1 Hr p Hp f s tree H.
  destruct (accepted_balanced f p s tree H) as [[B1 B2] Hnb].
  destruct (prefix_blank_or_open v w1 x Hwf Htop Hw1 Hr p Hp) as [Hb|Ho].
  - unfold ws in Hb. rewrite Hb in Hnb. discriminate Hnb.
  - rewrite B1, B2 in Ho. destruct Ho as [Ho|Ho]; [apply Ho; reflexivity|lia].
Qed.

(* Non-vacuity: the document of JsonComplete.v (leading space, no trailing whitespace):
   {"k\né" : [1, -2.5e+3 ,true,false , null, "x\\" ] ,"o":{ } , "e" : [<TAB>]} *)

Definition ex_doc : text := removelast ex_text.

Example ex_doc_renders : exists x, ex_doc = [32] ++ x /\ renders ex_v x.
Proof. eexists. split; [|exact ex_r]. vm_compute. reflexivity. Qed.

Example ex_prefixes_rejected : forall p, proper_prefix p ex_doc ->
  forall f s tree, parse json_grammar f json_grammar_start p 0 <> Ok s tree.
Proof.
  destruct ex_doc_renders as [x [E Hr]]. rewrite E.
  exact (json_prefix_rejected ex_v [32] x ex_wf I eq_refl Hr).
Qed.

(* ... and running the reference semantics with fuel 100 agrees: the document is accepted, each of
   its 77 proper prefixes (lengths 0 .. 76) fails (a Fail, not a fuel exhaustion) *)
Definition is_ok (r : res) : bool := match r with Ok _ _ => true | _ => false end.
Definition is_fail (r : res) : bool := match r with Fail _ => true | _ => false end.

Example ex_doc_accepted : is_ok (parse json_grammar 100 json_grammar_start ex_doc 0) = true.
Proof. vm_compute. reflexivity. Qed.

Example ex_prefixes_fail :
  length ex_doc = 77%nat /\
  forallb (fun k => is_fail (parse json_grammar 100 json_grammar_start (firstn k ex_doc) 0))
          (seq 0 (length ex_doc)) = true.
Proof. vm_compute. split; reflexivity. Qed.

Print Assumptions renders_prefix_open.
Print Assumptions value_level.
Print Assumptions accepted_balanced.
Print Assumptions ex_prefixes_rejected.
Print Assumptions json_prefix_rejected.
