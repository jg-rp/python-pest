(* GenProof.v — the model of the generated code (Gen.v) refines the reference semantics (Spec.v).
   With inl = [] the generated code runs in lockstep with the interpreter at the same fuel
   (`gi_sim`): on success the same state and pairs; on failure the same state except for the
   pending tags (a non-silent rule's closure pops the tag before it looks at `matched`), the
   pairs not compared (every caller drops them).  `gparse_refines` is iparse_refines carried along.
   For a general `inl`, `simB` relates the run to the one with inl = []: all agrees but the rule
   stack, the rule stacks saved in checkpoints and the names in the failure tracker.
   Three parts are about the interpreter alone: `iparse_fuel_indep` (what
   `generated_equals_interpreter` rests on), fuel monotonicity `irun_mono`, and the termination
   transfer `term_all` / `iparse_terminates`, which `gparse_terminates` carries over. *)
From Coq Require Import List ZArith Bool Lia.
Import ListNotations.
From PP Require Import Syntax Spec SpecSyn SpecLaws Interp InterpProof Gen.

Lemma inlined_nil n : inlined [] n = false.
Proof. reflexivity. Qed.

Lemma leave_rules r s : i_rules (leave r s) = i_rules s.
Proof. unfold leave. destruct (depth_mode r); reflexivity. Qed.
Lemma leave_pos r s : i_pos (leave r s) = i_pos s.
Proof. unfold leave. destruct (depth_mode r); reflexivity. Qed.
Lemma leave_tags r s : i_tags (leave r s) = i_tags s.
Proof. unfold leave. destruct (depth_mode r); reflexivity. Qed.
Lemma enter_rules r s : i_rules (enter r s) = r_name r :: i_rules s.
Proof. unfold enter. destruct (depth_mode r); reflexivity. Qed.

Lemma grun_rule g inl f r s :
  grun g inl (S f) (GRule r) s =
  if inlined inl (r_name r) then grun g inl f (GEval (r_body r)) s else
  match grun g inl f (GEval (r_body r)) (enter r s) with
  | GOk m s3 kids =>
      match i_rules (leave r s3) with
      | [] => GCrash
      | _ :: rl =>
          let s5 := upd_rules (leave r s3) rl in
          if r_silent r then GOk m s5 (if hides r then vis g kids else kids)
          else if m then GOk true (upd_tags s5 (tl (i_tags s5)))
                 [Pair (r_name r) (i_pos s) (i_pos s5) (if hides r then vis g kids else kids)
                    (match i_tags s5 with t0 :: _ => Some t0 | [] => None end)]
               else GOk false (upd_tags s5 (tl (i_tags s5))) []
      end
  | x => x
  end.
Proof. reflexivity. Qed.

Definition gres_of (ir : ires) : gres :=
  match ir with IOk m s ps => GOk m s ps | ICrash => GCrash | IUndef => GUndef | IFuel => GFuel end.

Lemma gfail_of s : gfail_here s = gres_of (fail_here s).
Proof. unfold gfail_here, fail_here. destruct (ifail s false None); reflexivity. Qed.

Lemma gleaf g inl e f s : terminal e = true ->
  grun g inl (S f) (GEval e) s = gres_of (irun g (S f) (IEval e) s).
Proof.
  intros L. destruct e; try discriminate L; cbn [grun irun]; rewrite ?gfail_of;
    repeat match goal with |- context [match ?x with _ => _ end] => destruct x end; reflexivity.
Qed.

Lemma grun_unrolled g inl e es f s : unrolled e = Some es ->
  grun g inl (S f) (GEval e) s = grun g inl f (GSeq es) s.
Proof. destruct e; intros [= <-]; reflexivity. Qed.

(* equal except for the pending tags *)
Definition eqx (a b : ist) : Prop :=
  i_pos a = i_pos b /\ i_rest a = i_rest b /\ i_user a = i_user b /\ i_rules a = i_rules b /\
  i_depth a = i_depth b /\ i_dcps a = i_dcps b /\ i_saved a = i_saved b /\ i_neg a = i_neg b /\
  i_sup a = i_sup b /\ i_trk a = i_trk b.

Lemma eqx_refl a : eqx a a.
Proof. repeat split. Qed.

Lemma eqx_restore a b : eqx a b -> irestore a = irestore b.
Proof.
  intros (H1 & H2 & H3 & H4 & H5 & H6 & H7 & H8 & H9 & H10). unfold irestore.
  rewrite H6, H7, H8, H9, H10. reflexivity.
Qed.

Lemma eqx_leave r a b l : eqx a b -> eqx (upd_rules (leave r a) l) (upd_rules (leave r b) l).
Proof.
  intros (H1&H2&H3&H4&H5&H6&H7&H8&H9&H10). unfold eqx, leave.
  destruct (depth_mode r); cbn; rewrite ?H6; repeat split; assumption.
Qed.

Definition conv (t : gtask) : itask :=
  match t with
  | GEval e => IEval e
  | GSeq es => ISeq es
  | GAlt es => IAlt es
  | GStar e b => IStar e b
  | GTrivia => ITrivia
  | GWsLoop => IWsLoop
  | GTrivLoop => ITrivLoop
  | GTrivOnce n => ITrivRule n
  | GRule r => IRule r
  end.

(* the correspondence of results; the `matched` flag of GTrivia, GWsLoop and GTrivLoop is never
   looked at by their callers and differs between the two machines *)
Definition grel (t : gtask) (gr : gres) (ir : ires) : Prop :=
  match gr, ir with
  | GOk mg sg pg, IOk mi si pi =>
      match t with
      | GTrivia | GWsLoop | GTrivLoop => sg = si /\ pg = pi
      | GTrivOnce _ => mg = mi /\ sg = si /\ pg = pi
      | _ => mg = mi /\ (if mg then sg = si /\ pg = pi else eqx sg si)
      end
  | GCrash, ICrash => True
  | GUndef, IUndef => True
  | GFuel, IFuel => True
  | _, _ => False
  end.

Lemma ok_rel t m s ps : grel t (GOk m s ps) (IOk m s ps).
Proof.
  destruct t; cbn [grel]; try (split; reflexivity);
    try (split; [reflexivity|]; destruct m; [split; reflexivity|apply eqx_refl]).
  repeat split.
Qed.

Section GI.
Variable g : grammar.

(* a call under IH from s on both sides: destructs the two results; mixed cases contradict X,
   those without a state are True; what remains: two states, X : what `grel t` says of them *)
Tactic Notation "call" constr(IH) constr(t) constr(s) "as" ident(X)
    ident(mg) ident(sg) ident(pg) ident(mi) ident(si) ident(pi) :=
  pose proof (IH t s) as X; cbn [conv] in X;
  let it := eval cbn [conv] in (conv t) in
  destruct (grun g [] _ t s) as [mg sg pg| | |];
  destruct (irun g _ it s) as [mi si pi| | |];
  cbn [grel] in X; try contradiction; try exact I.

(* ... for a task other than the trivia tasks, split by the common verdict: on success states
   and pairs are identified, on failure X : eqx sg si remains *)
Tactic Notation "callE" constr(IH) constr(t) constr(s) "as" ident(X)
    ident(sg) ident(pg) ident(si) ident(pi) :=
  let m := fresh "m" in let mi := fresh "mi" in
  call IH t s as X m sg pg mi si pi; destruct X as [<- X]; destruct m; [destruct X as [<- <-]|].

Lemma gi_sim : forall f t s, grel t (grun g [] f t s) (irun g f (conv t) s).
Proof.
  induction f as [|f IH]; intros t s; [exact I|].
  destruct t as [e|es|es|e first| | | |n|r]; cbn [conv].
  - (* GEval *)
    destruct (terminal e) eqn:Lf.
    { rewrite (gleaf g [] e f s Lf). destruct (irun g (S f) (IEval e) s); [apply ok_rel|exact I..]. }
    destruct (unrolled e) as [es|] eqn:U.
    { rewrite (grun_unrolled g [] e es f s U), (irun_unrolled g e es f s U). exact (IH (GSeq es) s). }
    destruct e; try discriminate Lf; try discriminate U; cbn [grun irun].
    + (* ERef *)
      destruct (lookup g n) as [r|]; [|exact I]. cbv zeta.
      callE IH (GRule r) (match tag with Some tg => upd_tags s (tg :: i_tags s) | None => s end)
        as X sg pg si pi.
      * apply ok_rel.
      * cbn [grel]. split; [reflexivity|]. destruct tag; exact X.
    + exact (IH (GAlt es) s).
    + (* EOpt *)
      callE IH (GEval e) (icheckpoint s) as X sg pg si pi.
      * destruct (iok sg); [apply ok_rel|exact I].
      * rewrite (eqx_restore _ _ X). destruct (irestore si); [apply ok_rel|exact I].
    + exact (IH (GStar e true) s).
    + (* EAnd *)
      callE IH (GEval e) (icheckpoint s) as X sg pg si pi.
      * destruct (irestore sg); [apply ok_rel|exact I].
      * rewrite (eqx_restore _ _ X). destruct (irestore si); [apply ok_rel|exact I].
    + (* ENot *)
      callE IH (GEval e) (upd_neg (icheckpoint s) (S (i_neg s))) as X sg pg si pi.
      * destruct (irestore sg) as [s2|]; [|exact I]. destruct (ifail s2 true _); [apply ok_rel|exact I].
      * rewrite (eqx_restore _ _ X). destruct (irestore si); [apply ok_rel|exact I].
    + (* EGrp *)
      cbv zeta.
      callE IH (GEval e) (match tag with Some tg => upd_tags s (tg :: i_tags s) | None => s end)
        as X sg pg si pi.
      * apply ok_rel.
      * cbn [grel]. split; [reflexivity|]. destruct tag; exact X.
    + (* EPush *)
      callE IH (GEval e) s as X sg pg si pi; [apply ok_rel|cbn [grel]; split; [reflexivity|exact X]].
  - (* GSeq *)
    cbn [grun irun]. destruct es as [|e1 es']; [apply ok_rel|].
    callE IH (GEval e1) s as X1 s1 p1 si1 pi1; [|cbn [grel]; split; [reflexivity|exact X1]].
    destruct es' as [|e2 es'']; [apply ok_rel|].
    call IH GTrivia s1 as X2 m2 s2 pw mi2 si2 pwi.
    destruct X2 as [<- <-].
    callE IH (GSeq (e2 :: es'')) s2 as X3 s3 p3 si3 pi3;
      [apply ok_rel|cbn [grel]; split; [reflexivity|exact X3]].
  - (* GAlt *)
    cbn [grun irun]. destruct es as [|e1 es']; [apply ok_rel|].
    callE IH (GEval e1) (icheckpoint s) as X1 s1 p1 si1 pi1.
    + destruct (iok s1); [apply ok_rel|exact I].
    + rewrite (eqx_restore _ _ X1). destruct (irestore si1) as [s2|]; [|exact I].
      exact (IH (GAlt es') s2).
  - (* GStar *)
    cbn [grun irun]. cbv zeta.
    set (x := if first then _ else grun g [] f GTrivia _). set (y := if first then _ else irun g f ITrivia _).
    assert (X0 : grel GTrivia x y)
      by (subst x y; destruct first; [split; reflexivity|exact (IH GTrivia (icheckpoint s))]).
    destruct x as [m0 s1 pw| | |], y as [mi0 si0 pwi| | |]; cbn [grel] in X0; try contradiction; try exact I.
    destruct X0 as [<- <-].
    callE IH (GEval e) s1 as X2 s2 p2 si2 pi2.
    + destruct (iok s2) as [s3|]; [|exact I].
      callE IH (GStar e false) s3 as X4 s4 p4 si4 pi4;
        [apply ok_rel|cbn [grel]; split; [reflexivity|exact X4]].
    + rewrite (eqx_restore _ _ X2). destruct (irestore si2); [apply ok_rel|exact I].
  - (* GTrivia *)
    cbn [grun irun]. change (ghas_rule g) with (has_rule g).
    destruct (negb (has_rule g WS_ID) && negb (has_rule g CM_ID));
      destruct (Nat.ltb 0 (i_depth s)); try (cbn [grel]; split; reflexivity).
    call IH GTrivLoop (upd_sup s true) as X m1 s1 p1 mi1 si1 pi1.
    destruct X as [<- <-]. split; reflexivity.
  - (* GWsLoop *)
    cbn [grun irun].
    call IH (GTrivOnce WS_ID) s as X1 m1 s1 p1 mi1 si1 pi1.
    destruct X1 as (<- & <- & <-). destruct m1; [|cbn [grel]; split; reflexivity].
    call IH GWsLoop s1 as X2 m2 s2 p2 mi2 si2 pi2.
    destruct X2 as [<- <-]. split; reflexivity.
  - (* GTrivLoop *)
    cbn [grun irun]. change (ghas_rule g) with (has_rule g).
    set (x := if has_rule g WS_ID then grun g [] f GWsLoop s else _).
    set (y := if has_rule g WS_ID then irun g f IWsLoop s else _).
    assert (X0 : grel GWsLoop x y)
      by (subst x y; destruct (has_rule g WS_ID); [exact (IH GWsLoop s)|split; reflexivity]).
    destruct x as [m0 s1 p1| | |], y as [mi0 si0 pi0| | |]; cbn [grel] in X0; try contradiction; try exact I.
    destruct X0 as [<- <-].
    destruct (has_rule g CM_ID); [|cbn [grel]; split; reflexivity].
    call IH (GTrivOnce CM_ID) s1 as X2 m2 s2 p2 mi2 si2 pi2.
    destruct X2 as (<- & <- & <-). destruct m2; [|cbn [grel]; split; reflexivity].
    call IH GTrivLoop s2 as X3 m3 s3 p3 mi3 si3 pi3.
    destruct X3 as [<- <-]. split; reflexivity.
  - (* GTrivOnce *)
    cbn [grun irun]. destruct (lookup g n) as [r|]; [|exact I].
    callE IH (GRule r) (icheckpoint s) as X s1 p1 si1 pi1.
    + destruct (iok s1); [apply ok_rel|exact I].
    + rewrite (eqx_restore _ _ X). destruct (irestore si1); [apply ok_rel|exact I].
  - (* GRule *)
    rewrite grun_rule, irun_rule, inlined_nil.
    callE IH (GEval (r_body r)) (enter r s) as X s3 kids si3 kidsi.
    + destruct (i_rules (leave r s3)) as [|x rl]; [exact I|].
      cbv zeta. cbn [negb]. destruct (r_silent r); apply ok_rel.
    + rewrite !leave_rules, (proj1 (proj2 (proj2 (proj2 X)))).
      destruct (i_rules si3) as [|x rl]; [exact I|]. cbv zeta. cbn [negb].
      destruct (r_silent r); cbn [grel]; (split; [reflexivity|]); exact (eqx_leave r _ _ rl X).
Qed.

End GI.

(* with nothing inlined: the same state and pairs on success, the same state but for the pending
   tags on failure *)
Theorem gparse_interp : forall g f rule input k,
  match gparse g [] f rule input k, iparse g f rule input k with
  | GOk mg sg pg, IOk mi si pi => mg = mi /\ (if mg then sg = si /\ pg = pi else eqx sg si)
  | GCrash, ICrash => True
  | GUndef, IUndef => True
  | GFuel, IFuel => True
  | _, _ => False
  end.
Proof.
  intros g f rule input k. unfold gparse, iparse.
  destruct (lookup g rule) as [r|]; [|exact I].
  rewrite inlined_nil. exact (gi_sim g f (GRule r) (ist0 input k)).
Qed.

(* the generated code refines the reference semantics; the failure tracker is the
   reference's, names included *)

Notation gconclusion g inl f rule input k :=
  (match gparse g inl f rule input k with
   | GOk true s' ps  => (exists f', parse g f' rule input k = Ok (abs_st s') ps) /\ i_saved s' = [] /\ i_dcps s' = [] /\ i_rules s' = [] /\ i_depth s' = 0
   | GOk false s' _  => (exists f', parse g f' rule input k = Fail (i_trk s'))   /\ i_saved s' = [] /\ i_dcps s' = [] /\ i_rules s' = []
   | GUndef          => exists f', parse g f' rule input k = Err
   | GCrash          => False
   | GFuel           => True
   end) (only parsing).

Theorem gparse_refines : forall g,
  (forall n r, lookup g n = Some r -> r_silent r = true -> silent_ok g r) ->
  forall f rule input k,
    match gparse g [] f rule input k with
    | GOk true s' ps  => (exists f', parse g f' rule input k = Ok (abs_st s') ps) /\ i_saved s' = [] /\ i_dcps s' = [] /\ i_rules s' = [] /\ i_depth s' = 0
    | GOk false s' _  => (exists f', parse g f' rule input k = Fail (i_trk s'))   /\ i_saved s' = [] /\ i_dcps s' = [] /\ i_rules s' = []
    | GUndef          => exists f', parse g f' rule input k = Err
    | GCrash          => False
    | GFuel           => True
    end.
Proof.
  intros g Hsil f rule input k.
  assert (GI := gparse_interp g f rule input k).
  assert (IR := iparse_refines g Hsil f rule input k).
  destruct (gparse g [] f rule input k) as [mg sg pg| | |];
    destruct (iparse g f rule input k) as [mi si pi| | |]; try contradiction; try exact I.
  - destruct GI as [<- GI]. destruct mg.
    + destruct GI as [<- <-]. exact IR.
    + destruct GI as (_&_&_&E4&_&E6&E7&_&_&E10). rewrite E4, E6, E7, E10. exact IR.
  - exact IR.
Qed.

Corollary gparse_refines_kinds : forall g,
  (forall n r, lookup g n = Some r -> r_silent r = true ->
     r_kind r <> KCompound /\ (r_kind r = KNonAtomic -> is_trivia_name n = true)) ->
  forall f rule input k, gconclusion g [] f rule input k.
Proof. intros g NS. apply gparse_refines, kinds_silent_ok, NS. Qed.

(* PEEK / POP on an empty stack fail without recording a failure, in all three models (Spec.v:
   `Fail (s_trk s)`), so the trackers coincide; an instance: r = { PEEK } on "a" *)
Definition ex_peek : grammar :=
  [ {| r_name := 10; r_silent := false; r_kind := KNormal; r_body := EPeek |} ].

Example peek_empty_agrees :
  match gparse ex_peek [] 5 10%N [97%N] 0, iparse ex_peek 5 10%N [97%N] 0, parse ex_peek 5 10%N [97%N] 0 with
  | GOk false s1 _, IOk false s2 _, Fail t => i_trk s1 = t /\ i_trk s2 = t /\ t = trk0
  | _, _, _ => False
  end.
Proof. vm_compute. repeat split. Qed.

Ltac inv H := inversion H; subst; clear H.

Lemma ifail_frame s b n s' : ifail s b n = Some s' -> frame s s'.
Proof.
  unfold ifail. destruct (_ || _); [intros H; inv H; apply frame_refl|].
  destruct (match n with Some n0 => Some n0 | None => hd_error (i_rules s) end); [|discriminate].
  intros H; inv H. repeat split.
Qed.

Definition snap_eq (x y : snap) : Prop :=
  match x, y with
  | (p, r, u, _, tg), (p', r', u', _, tg') => p = p' /\ r = r' /\ u = u' /\ tg = tg'
  end.

Definition sr (a b : ist) : Prop :=
  i_pos a = i_pos b /\ i_rest a = i_rest b /\ i_user a = i_user b /\ i_depth a = i_depth b /\
  i_dcps a = i_dcps b /\ i_tags a = i_tags b /\ Forall2 snap_eq (i_saved a) (i_saved b) /\
  i_neg a = i_neg b /\ i_sup a = i_sup b /\ t_pos (i_trk a) = t_pos (i_trk b).

(* sr is kept by every operation on the state that does not look into the rule stack *)
Ltac sr_fields :=
  intros (Hpos&Hrest&Huser&Hdepth&Hdcps&Htags&Hsaved&Hneg&Hsup&Htrk);
  unfold sr, enter, leave, adv_i;
  try match goal with |- context [depth_mode ?r] => destruct (depth_mode r) end;
  cbn; rewrite ?Hdcps; repeat split; try assumption; congruence.

Lemma sr_pos a b p r : sr a b -> sr (upd_pos a p r) (upd_pos b p r).
Proof. sr_fields. Qed.
Lemma sr_user a b u : sr a b -> sr (upd_user a u) (upd_user b u).
Proof. sr_fields. Qed.
Lemma sr_tags (h : list N -> list N) a b : sr a b ->
  sr (upd_tags a (h (i_tags a))) (upd_tags b (h (i_tags b))).
Proof. sr_fields. Qed.
Lemma sr_neg (h : nat -> nat) a b : sr a b -> sr (upd_neg a (h (i_neg a))) (upd_neg b (h (i_neg b))).
Proof. sr_fields. Qed.
Lemma sr_sup a b v : sr a b -> sr (upd_sup a v) (upd_sup b v).
Proof. sr_fields. Qed.
Lemma sr_rules_l a b l : sr a b -> sr (upd_rules a l) b.
Proof. sr_fields. Qed.
Lemma sr_rules_r a b l : sr a b -> sr a (upd_rules b l).
Proof. sr_fields. Qed.
Lemma sr_enter r a b : sr a b -> sr (enter r a) (enter r b).
Proof. sr_fields. Qed.
Lemma sr_leave r a b : sr a b -> sr (leave r a) (leave r b).
Proof. sr_fields. Qed.

Lemma sr_ck a b : sr a b -> sr (icheckpoint a) (icheckpoint b).
Proof.
  intros (Hpos&Hrest&Huser&Hdepth&Hdcps&Htags&Hsaved&Hneg&Hsup&Htrk).
  unfold sr; cbn. repeat split; try assumption; try congruence.
  constructor; [cbn; repeat split; assumption|assumption].
Qed.

Lemma sr_iok a b : sr a b ->
  match iok a, iok b with
  | Some a', Some b' => sr a' b'
  | None, None => True
  | _, _ => False
  end.
Proof.
  intros (Hpos&Hrest&Huser&Hdepth&Hdcps&Htags&Hsaved&Hneg&Hsup&Htrk).
  unfold iok. destruct Hsaved as [|x y sa sb Hxy Hs]; [exact I|].
  unfold sr; cbn. repeat split; try assumption; congruence.
Qed.

Lemma sr_irestore a b : sr a b ->
  match irestore a, irestore b with
  | Some a', Some b' => sr a' b'
  | None, None => True
  | _, _ => False
  end.
Proof.
  intros (Hpos&Hrest&Huser&Hdepth&Hdcps&Htags&Hsaved&Hneg&Hsup&Htrk).
  unfold irestore. destruct Hsaved as [|x y sa sb Hxy Hs]; [exact I|].
  destruct x as [[[[p r] u] rl] tg], y as [[[[p' r'] u'] rl'] tg']. cbn in Hxy.
  destruct Hxy as (->&->&->&->).
  unfold sr; cbn. rewrite Hdcps. repeat split; assumption.
Qed.

Lemma sr_trk a b ta tb : sr a b -> t_pos ta = t_pos tb -> sr (upd_trk a ta) (upd_trk b tb).
Proof. intros S E. revert S. sr_fields. Qed.

(* `fail()` records different names at the same position, if it finds a name on both sides *)
Lemma sr_ifail a b fo nm : sr a b -> (nm = None -> i_rules a <> [] /\ i_rules b <> []) ->
  match ifail a fo nm, ifail b fo nm with
  | Some a', Some b' => sr a' b'
  | _, _ => False
  end.
Proof.
  intros S NE. pose proof S as (Hpos&_&_&_&_&_&_&Hneg&Hsup&Htrk).
  unfold ifail. rewrite Hneg, Hsup.
  destruct ((Nat.ltb 0 (i_neg b) && negb fo) || i_sup b); [exact S|].
  assert (NN : exists x y,
            match nm with Some n => Some n | None => hd_error (i_rules a) end = Some x /\
            match nm with Some n => Some n | None => hd_error (i_rules b) end = Some y).
  { destruct nm as [n|]; [exists n, n; split; reflexivity|]. destruct (NE eq_refl) as [A B].
    destruct (i_rules a) as [|x la]; [contradiction|]. destruct (i_rules b) as [|y lb]; [contradiction|].
    exists x, y. split; reflexivity. }
  destruct NN as [x [y [-> ->]]]. apply sr_trk; [exact S|]. rewrite Hpos, Htrk.
  destruct (t_pos (i_trk b) <? Z.of_N (i_pos b))%Z; [destruct (Nat.odd (i_neg b)); reflexivity|].
  destruct (Z.of_N (i_pos b) =? t_pos (i_trk b))%Z; [destruct (Nat.odd (i_neg b)); reflexivity|].
  exact Htrk.
Qed.

(* two finished calls, one from a and one from b: the final states are related and each call
   has kept the frame of its initial state (checkpoint stack, saved depths, rule stack, atomic and
   negation depth, suppression flag), whatever is inlined; the pending tags are NOT preserved on
   failure *)
Definition fsr (a b a1 b1 : ist) : Prop := sr a1 b1 /\ frame a a1 /\ frame b b1.

Lemma fsr_refl {a b} : sr a b -> fsr a b a b.
Proof. intros S. exact (conj S (conj (frame_refl a) (frame_refl b))). Qed.

Lemma fsr_trans {a b a1 b1 a2 b2} : fsr a b a1 b1 -> fsr a1 b1 a2 b2 -> fsr a b a2 b2.
Proof.
  intros (_ & F1 & G1) (S & F2 & G2).
  exact (conj S (conj (frame_trans _ _ _ F1 F2) (frame_trans _ _ _ G1 G2))).
Qed.

(* inside a rule both rule stacks are non-empty, and stay so *)
Definition ne2 (a b : ist) : Prop := i_rules a <> [] /\ i_rules b <> [].

Lemma fsr_ne2 {a b a1 b1} : fsr a b a1 b1 -> ne2 a b -> ne2 a1 b1.
Proof. intros (_ & (_&_&A&_) & (_&_&B&_)) [N1 N2]. split; congruence. Qed.

Lemma fsr_tags (h : list N -> list N) {a b a1 b1} : fsr a b a1 b1 ->
  fsr a b (upd_tags a1 (h (i_tags a1))) (upd_tags b1 (h (i_tags b1))).
Proof. intros (S & F). exact (conj (sr_tags h _ _ S) F). Qed.

(* `with state.tag(tag):` around a call *)
Lemma sr_push_tag (tag : option N) a b : sr a b ->
  sr (match tag with Some tg => upd_tags a (tg :: i_tags a) | None => a end)
     (match tag with Some tg => upd_tags b (tg :: i_tags b) | None => b end).
Proof. intros S. destruct tag as [tg|]; [apply (sr_tags (cons tg))|]; exact S. Qed.

Lemma fsr_pop_tag (tag : option N) {a b a1 b1} :
  fsr (match tag with Some tg => upd_tags a (tg :: i_tags a) | None => a end)
      (match tag with Some tg => upd_tags b (tg :: i_tags b) | None => b end) a1 b1 ->
  fsr a b (match tag with Some _ => upd_tags a1 (tl (i_tags a1)) | None => a1 end)
          (match tag with Some _ => upd_tags b1 (tl (i_tags b1)) | None => b1 end).
Proof. intros X. destruct tag; [exact (fsr_tags (@tl N) X)|exact X]. Qed.

Lemma ne2_push_tag (tag : option N) a b : ne2 a b ->
  ne2 (match tag with Some tg => upd_tags a (tg :: i_tags a) | None => a end)
      (match tag with Some tg => upd_tags b (tg :: i_tags b) | None => b end).
Proof. intros P. destruct tag; exact P. Qed.

(* `with state.suppress_failures():` around a call *)
Lemma fsr_sup_out v {a b a1 b1} : i_sup a = i_sup b -> fsr (upd_sup a v) (upd_sup b v) a1 b1 ->
  fsr a b (upd_sup a1 (i_sup a)) (upd_sup b1 (i_sup b)).
Proof.
  intros E (S & (A1&A2&A3&A4&A5&_) & (B1&B2&B3&B4&B5&_)).
  split; [rewrite E; apply sr_sup; exact S|]. split; repeat split; assumption.
Qed.

(* `ok()` / `restore()` after calls that started on a checkpoint; the negative predicate runs
   them at another negation depth, and lowering it again closes the frame *)
Lemma fsr_iok {a b a1 b1} : fsr (icheckpoint a) (icheckpoint b) a1 b1 ->
  exists a2 b2, iok a1 = Some a2 /\ iok b1 = Some b2 /\ fsr a b a2 b2.
Proof.
  intros (S & F & G). assert (S2 := sr_iok a1 b1 S).
  destruct (commit a a1 F) as (a2 & Ea & _ & Fa). destruct (commit b b1 G) as (b2 & Eb & _ & Gb).
  rewrite Ea, Eb in S2. exists a2, b2. exact (conj Ea (conj Eb (conj S2 (conj Fa Gb)))).
Qed.

Lemma fsr_irestore_at {a b a1 b1} na nb : fsr (upd_neg (icheckpoint a) na) (upd_neg (icheckpoint b) nb) a1 b1 ->
  exists a2 b2, irestore a1 = Some a2 /\ irestore b1 = Some b2 /\ fsr (upd_neg a na) (upd_neg b nb) a2 b2.
Proof.
  intros (S & F & G). assert (S2 := sr_irestore a1 b1 S).
  destruct (rollback_at a na a1 F) as (a2 & Ea & _ & _ & Fa).
  destruct (rollback_at b nb b1 G) as (b2 & Eb & _ & _ & Gb).
  rewrite Ea, Eb in S2. exists a2, b2. exact (conj Ea (conj Eb (conj S2 (conj Fa Gb)))).
Qed.

Lemma fsr_irestore {a b a1 b1} : fsr (icheckpoint a) (icheckpoint b) a1 b1 ->
  exists a2 b2, irestore a1 = Some a2 /\ irestore b1 = Some b2 /\ fsr a b a2 b2.
Proof. exact (fsr_irestore_at (i_neg a) (i_neg b)). Qed.

Lemma fsr_neg_out {a b a1 b1} : fsr (upd_neg a (S (i_neg a))) (upd_neg b (S (i_neg b))) a1 b1 ->
  fsr a b (upd_neg a1 (pred (i_neg a1))) (upd_neg b1 (pred (i_neg b1))).
Proof.
  intros (X & F & G). exact (conj (sr_neg pred _ _ X) (conj (neg_out a a1 F) (neg_out b b1 G))).
Qed.

Lemma fsr_ifail a b fo nm : sr a b -> (nm = None -> ne2 a b) ->
  match ifail a fo nm, ifail b fo nm with
  | Some a', Some b' => fsr a b a' b'
  | _, _ => False
  end.
Proof.
  intros S NE. assert (X := sr_ifail a b fo nm S NE).
  destruct (ifail a fo nm) as [a'|] eqn:Ea; [|exact X]. destruct (ifail b fo nm) as [b'|] eqn:Eb; [|exact X].
  exact (conj X (conj (ifail_frame _ _ _ _ Ea) (ifail_frame _ _ _ _ Eb))).
Qed.

Definition rel2 (a b : ist) (x y : gres) : Prop :=
  match x, y with
  | GOk m1 a1 p1, GOk m2 b1 p2 => m1 = m2 /\ p1 = p2 /\ fsr a b a1 b1
  | GCrash, GCrash => True
  | GUndef, GUndef => True
  | GFuel, GFuel => True
  | _, _ => False
  end.

Lemma rel2_ok m p {a b a1 b1} : fsr a b a1 b1 -> rel2 a b (GOk m a1 p) (GOk m b1 p).
Proof. intros X. exact (conj eq_refl (conj eq_refl X)). Qed.

Lemma rel2_trans {a b a1 b1 x y} : fsr a b a1 b1 -> rel2 a1 b1 x y -> rel2 a b x y.
Proof.
  intros X. destruct x, y; cbn [rel2]; try exact (fun H => H).
  intros (E1 & E2 & X2). exact (conj E1 (conj E2 (fsr_trans X X2))).
Qed.

Lemma rel2_iok m p {a b a1 b1} : fsr (icheckpoint a) (icheckpoint b) a1 b1 ->
  rel2 a b (match iok a1 with Some s => GOk m s p | None => GCrash end)
           (match iok b1 with Some s => GOk m s p | None => GCrash end).
Proof. intros X. destruct (fsr_iok X) as (a2 & b2 & -> & -> & X2). exact (rel2_ok m p X2). Qed.

Lemma rel2_irestore m p {a b a1 b1} : fsr (icheckpoint a) (icheckpoint b) a1 b1 ->
  rel2 a b (match irestore a1 with Some s => GOk m s p | None => GCrash end)
           (match irestore b1 with Some s => GOk m s p | None => GCrash end).
Proof. intros X. destruct (fsr_irestore X) as (a2 & b2 & -> & -> & X2). exact (rel2_ok m p X2). Qed.

Lemma rel2_fail a b : sr a b -> ne2 a b -> rel2 a b (gfail_here a) (gfail_here b).
Proof.
  intros S NE. assert (X := fsr_ifail a b false None S (fun _ => NE)). unfold gfail_here.
  destruct (ifail a false None); [|contradiction]. destruct (ifail b false None); [|contradiction].
  exact (rel2_ok false [] X).
Qed.

(* what the harness guarantees about the inlined built-ins (ANY, ASCII_DIGIT, ... but not EOI) *)
Definition inl_ok (g : grammar) (inl : list N) : Prop :=
  forall n r, lookup g n = Some r -> inlined inl n = true ->
    r_silent r = true /\ r_kind r = KNormal /\ is_trivia_name n = false.

Section B.
Variable g : grammar.
Variable inl : list N.
Hypothesis Hinl : inl_ok g inl.

(* a rule to run is the grammar's and, if emitted in place, finds the left rule stack non-empty
   (so the start rule is not such a rule); every other task runs inside a rule on both sides *)
Definition preB (t : gtask) (a b : ist) : Prop :=
  match t with
  | GRule r => lookup g (r_name r) = Some r /\ (inlined inl (r_name r) = true -> i_rules a <> [])
  | _ => ne2 a b
  end.

Lemma preB_rule n r a b : lookup g n = Some r -> ne2 a b -> preB (GRule r) a b.
Proof.
  intros L P. split; [rewrite (lookup_name _ _ _ L); exact L|]. intros _. exact (proj1 P).
Qed.

(* a call under IH, from a on the left and b on the right: as `call`; what remains is two
   states with the same verdict and pairs, X : fsr a b a1 b1 *)
Tactic Notation "callB" constr(IH) constr(t) constr(a) constr(b) constr(S) constr(P) "as"
    ident(X) ident(m) ident(a1) ident(p1) ident(b1) :=
  pose proof (IH t a b S P) as X;
  let m2 := fresh "mright" in let p2 := fresh "pright" in
  destruct (grun g inl _ t a) as [m a1 p1| | |];
  destruct (grun g [] _ t b) as [m2 b1 p2| | |];
  cbn [rel2] in X; try contradiction; try exact I;
  destruct X as (<- & <- & X).

Lemma simB : forall f t a b, sr a b -> preB t a b -> rel2 a b (grun g inl f t a) (grun g [] f t b).
Proof.
  induction f as [|f IH]; intros t a b S P; [exact I|].
  pose proof S as (Hpos&Hrest&Huser&Hdepth&_&_&_&_&Hsup&_).
  destruct t as [e|es|es|e first| | | |n|r]; cbn [preB] in P.
  - (* GEval *)
    destruct (terminal e) eqn:Lf.
    { rewrite !gleaf by exact Lf.
      destruct (leaf_two g e f a b Lf Hpos Hrest Huser) as [[-> ->]|(m & p & r & u & -> & ->)].
      - rewrite <- !gfail_of. exact (rel2_fail a b S P).
      - apply rel2_ok. split; [apply sr_user, sr_pos; exact S|repeat split]. }
    destruct (unrolled e) as [es|] eqn:U.
    { rewrite !(grun_unrolled g _ e es f _ U). exact (IH (GSeq es) a b S P). }
    destruct e; try discriminate Lf; try discriminate U; cbn [grun].
    + (* ERef *)
      destruct (lookup g n) as [r|] eqn:L; [|exact I]. cbv zeta.
      callB IH (GRule r) (match tag with Some tg => upd_tags a (tg :: i_tags a) | None => a end)
        (match tag with Some tg => upd_tags b (tg :: i_tags b) | None => b end)
        (sr_push_tag tag a b S) (preB_rule n r _ _ L (ne2_push_tag tag a b P)) as X m a1 p1 b1.
      exact (rel2_ok m p1 (fsr_pop_tag tag X)).
    + exact (IH (GAlt es) a b S P).
    + (* EOpt *)
      callB IH (GEval e) (icheckpoint a) (icheckpoint b) (sr_ck _ _ S) P as X m a1 p1 b1.
      destruct m; [apply rel2_iok|apply rel2_irestore]; exact X.
    + exact (IH (GStar e true) a b S P).
    + (* EAnd *)
      callB IH (GEval e) (icheckpoint a) (icheckpoint b) (sr_ck _ _ S) P as X m a1 p1 b1.
      apply rel2_irestore. exact X.
    + (* ENot *)
      callB IH (GEval e) (upd_neg (icheckpoint a) (Datatypes.S (i_neg a)))
        (upd_neg (icheckpoint b) (Datatypes.S (i_neg b)))
        (sr_neg Datatypes.S _ _ (sr_ck _ _ S)) P as X m a1 p1 b1.
      destruct (fsr_irestore_at _ _ X) as (a2 & b2 & -> & -> & X2).
      destruct m; [|exact (rel2_ok true [] (fsr_neg_out X2))].
      assert (X3 := fsr_ifail a2 b2 true (match e with ERef n _ => Some n | _ => None end)
                      (proj1 X2) (fun _ => fsr_ne2 X2 P)).
      destruct (ifail a2 true _) as [a3|]; [|contradiction].
      destruct (ifail b2 true _) as [b3|]; [|contradiction].
      exact (rel2_ok false [] (fsr_neg_out (fsr_trans X2 X3))).
    + (* EGrp *)
      cbv zeta.
      callB IH (GEval e) (match tag with Some tg => upd_tags a (tg :: i_tags a) | None => a end)
        (match tag with Some tg => upd_tags b (tg :: i_tags b) | None => b end)
        (sr_push_tag tag a b S) (ne2_push_tag tag a b P) as X m a1 p1 b1.
      exact (rel2_ok m p1 (fsr_pop_tag tag X)).
    + (* EPush *)
      callB IH (GEval e) a b S P as X m a1 p1 b1.
      destruct m; [|apply rel2_ok; exact X]. destruct X as (X & F).
      rewrite Hpos, Hrest, (proj1 X), (proj1 (proj2 (proj2 X))). apply rel2_ok.
      exact (conj (sr_user _ _ _ X) F).
  - (* GSeq *)
    cbn [grun]. destruct es as [|e1 es']; [exact (rel2_ok true [] (fsr_refl S))|].
    callB IH (GEval e1) a b S P as X1 m1 a1 p1 b1.
    destruct m1; [|apply rel2_ok; exact X1].
    destruct es' as [|e2 es'']; [apply rel2_ok; exact X1|].
    assert (P1 := fsr_ne2 X1 P).
    callB IH GTrivia a1 b1 (proj1 X1) P1 as X2 m2 a2 pw b2.
    callB IH (GSeq (e2 :: es'')) a2 b2 (proj1 X2) (fsr_ne2 X2 P1) as X3 m3 a3 p3 b3.
    apply rel2_ok. exact (fsr_trans X1 (fsr_trans X2 X3)).
  - (* GAlt *)
    cbn [grun]. destruct es as [|e1 es']; [exact (rel2_ok false [] (fsr_refl S))|].
    callB IH (GEval e1) (icheckpoint a) (icheckpoint b) (sr_ck _ _ S) P as X1 m1 a1 p1 b1.
    destruct m1; [apply rel2_iok; exact X1|].
    destruct (fsr_irestore X1) as (a2 & b2 & -> & -> & X2).
    exact (rel2_trans X2 (IH (GAlt es') a2 b2 (proj1 X2) (fsr_ne2 X2 P))).
  - (* GStar *)
    cbn [grun]. cbv zeta.
    set (x := if first then _ else grun g inl f GTrivia _). set (y := if first then _ else grun g [] f GTrivia _).
    assert (X0 : rel2 (icheckpoint a) (icheckpoint b) x y).
    { subst x y. destruct first; [exact (rel2_ok true [] (fsr_refl (sr_ck _ _ S)))|].
      exact (IH GTrivia _ _ (sr_ck _ _ S) P). }
    destruct x as [m0 a1 pw| | |], y as [m0' b1 pw'| | |]; cbn [rel2] in X0; try contradiction; try exact I.
    destruct X0 as (_ & <- & X0).
    callB IH (GEval e) a1 b1 (proj1 X0) (fsr_ne2 X0 P) as X2 m2 a2 p2 b2.
    apply (fsr_trans X0) in X2.
    destruct m2; [|apply rel2_irestore; exact X2].
    destruct (fsr_iok X2) as (a3 & b3 & -> & -> & X3).
    callB IH (GStar e false) a3 b3 (proj1 X3) (fsr_ne2 X3 P) as X4 m4 a4 p4 b4.
    apply rel2_ok. exact (fsr_trans X3 X4).
  - (* GTrivia *)
    cbn [grun].
    destruct (negb (ghas_rule g WS_ID) && negb (ghas_rule g CM_ID)); [exact (rel2_ok true [] (fsr_refl S))|].
    rewrite Hdepth. destruct (Nat.ltb 0 (i_depth b)); [exact (rel2_ok true [] (fsr_refl S))|].
    callB IH GTrivLoop (upd_sup a true) (upd_sup b true) (sr_sup _ _ true S) P as X m1 a1 p1 b1.
    exact (rel2_ok true p1 (fsr_sup_out true Hsup X)).
  - (* GWsLoop *)
    cbn [grun].
    callB IH (GTrivOnce WS_ID) a b S P as X1 m1 a1 p1 b1.
    destruct m1; [|apply rel2_ok; exact X1].
    callB IH GWsLoop a1 b1 (proj1 X1) (fsr_ne2 X1 P) as X2 m2 a2 p2 b2.
    apply rel2_ok. exact (fsr_trans X1 X2).
  - (* GTrivLoop *)
    cbn [grun].
    set (x := if ghas_rule g WS_ID then grun g inl f GWsLoop a else _).
    set (y := if ghas_rule g WS_ID then grun g [] f GWsLoop b else _).
    assert (X0 : rel2 a b x y).
    { subst x y. destruct (ghas_rule g WS_ID); [exact (IH GWsLoop a b S P)|exact (rel2_ok false [] (fsr_refl S))]. }
    destruct x as [m0 a1 p1| | |], y as [m0' b1 p1'| | |]; cbn [rel2] in X0; try contradiction; try exact I.
    destruct X0 as (_ & <- & X0).
    destruct (ghas_rule g CM_ID); [|apply rel2_ok; exact X0].
    callB IH (GTrivOnce CM_ID) a1 b1 (proj1 X0) (fsr_ne2 X0 P) as X2 m2 a2 p2 b2.
    apply (fsr_trans X0) in X2.
    destruct m2; [|apply rel2_ok; exact X2].
    callB IH GTrivLoop a2 b2 (proj1 X2) (fsr_ne2 X2 P) as X3 m3 a3 p3 b3.
    apply rel2_ok. exact (fsr_trans X2 X3).
  - (* GTrivOnce *)
    cbn [grun]. destruct (lookup g n) as [r|] eqn:L; [|exact I].
    callB IH (GRule r) (icheckpoint a) (icheckpoint b) (sr_ck _ _ S) (preB_rule n r (icheckpoint a) (icheckpoint b) L P)
      as X1 m1 a1 p1 b1.
    destruct m1; [apply rel2_iok|apply rel2_irestore]; exact X1.
  - (* GRule *)
    destruct P as [L PI]. rewrite !grun_rule, inlined_nil.
    destruct (inlined inl (r_name r)) eqn:IN.
    + (* emitted in place on the left: no frame, no depth change, children passed up *)
      destruct (Hinl _ _ L IN) as [SI [KN TN]].
      assert (DM : depth_mode r = DSame) by (unfold depth_mode; rewrite KN, TN; reflexivity).
      assert (HH : hides r = false) by (unfold hides; rewrite KN; exact TN).
      assert (P0 : ne2 a (enter r b)).
      { split; [exact (PI eq_refl)|rewrite enter_rules; discriminate]. }
      assert (S0 : sr a (enter r b)) by (unfold enter; rewrite DM; apply sr_rules_r; exact S).
      callB IH (GEval (r_body r)) a (enter r b) S0 P0 as X m a1 p1 b1.
      destruct X as (X & F1 & F2). destruct (leave_enter r b b1 F2) as (-> & FR & _).
      cbv zeta. rewrite SI, HH. apply rel2_ok.
      split; [unfold leave; rewrite DM; apply sr_rules_r; exact X|exact (conj F1 FR)].
    + assert (P0 : ne2 (enter r a) (enter r b)) by (split; rewrite enter_rules; discriminate).
      callB IH (GEval (r_body r)) (enter r a) (enter r b) (sr_enter r a b S) P0 as X m a1 p1 b1.
      destruct X as (X & F1 & F2).
      destruct (leave_enter r a a1 F1) as (-> & FA & _). destruct (leave_enter r b b1 F2) as (-> & FB & _).
      cbv zeta.
      assert (X5 : fsr a b (upd_rules (leave r a1) (i_rules a)) (upd_rules (leave r b1) (i_rules b)))
        by exact (conj (sr_rules_l _ _ _ (sr_rules_r _ _ _ (sr_leave r _ _ X))) (conj FA FB)).
      destruct (r_silent r); [apply rel2_ok; exact X5|].
      assert (X6 := fsr_tags (@tl N) X5).
      destruct m; [|apply rel2_ok; exact X6].
      pose proof (proj1 X5) as (Xpos&_&_&_&_&Xtags&_).
      split; [reflexivity|]. split; [|exact X6]. rewrite Hpos, Xpos, Xtags. reflexivity.
Qed.

End B.

(* the generated parser with inlined built-ins against the one with nothing inlined: same
   fuel, same verdict, same pairs, same state except the names in the failure tracker *)

Theorem gparse_inl : forall g inl, inl_ok g inl ->
  forall f rule input k, inlined inl rule = false ->
    match gparse g inl f rule input k, gparse g [] f rule input k with
    | GOk m1 s1 p1, GOk m2 s2 p2 =>
        m1 = m2 /\ p1 = p2 /\
        i_pos s1 = i_pos s2 /\ i_rest s1 = i_rest s2 /\ i_user s1 = i_user s2 /\ i_tags s1 = i_tags s2 /\
        i_depth s1 = i_depth s2 /\ i_dcps s1 = i_dcps s2 /\ i_neg s1 = i_neg s2 /\ i_sup s1 = i_sup s2 /\
        t_pos (i_trk s1) = t_pos (i_trk s2) /\
        i_rules s1 = [] /\ i_saved s1 = []
    | GCrash, GCrash => True
    | GUndef, GUndef => True
    | GFuel, GFuel => True
    | _, _ => False
    end.
Proof.
  intros g inl Hinl f rule input k NI. unfold gparse. rewrite NI, inlined_nil.
  destruct (lookup g rule) as [r|] eqn:L; [|exact I].
  assert (NM := lookup_name _ _ _ L).
  assert (S0 : sr (ist0 input k) (ist0 input k)).
  { unfold sr. repeat split. constructor. }
  assert (P0 : preB g inl (GRule r) (ist0 input k) (ist0 input k)).
  { split; [rewrite NM; exact L|]. rewrite NM, NI. discriminate. }
  assert (X := simB g inl Hinl f (GRule r) _ _ S0 P0).
  destruct (grun g inl f (GRule r) (ist0 input k)) as [m1 s1 p1| | |];
    destruct (grun g [] f (GRule r) (ist0 input k)) as [m2 s2 p2| | |];
    cbn [rel2] in X; try contradiction; try exact I.
  destruct X as (EM & EP & (H1&H2&H3&H4&H5&H6&H7&H8&H9&H10) & (A1&A2&A3&_) & _).
  repeat split; assumption.
Qed.

(* the names do differ: top = { digit }, digit = _{ '0'..'9' } inlined; on "a" the failure is
   attributed to `top` by the inlining code and to `digit` otherwise *)
Definition ex_inl : grammar :=
  [ {| r_name := 10; r_silent := false; r_kind := KNormal; r_body := ERef 20 None |};
    {| r_name := 20; r_silent := true; r_kind := KNormal; r_body := ERange 48 57 |} ].

Lemma ex_inl_ok : inl_ok ex_inl [20%N].
Proof.
  intros n r L IN. unfold inlined in IN. cbn [existsb] in IN. rewrite orb_false_r in IN.
  apply N.eqb_eq in IN. subst n. vm_compute in L. inv L. repeat split.
Qed.

Lemma inl_names_differ :
  match gparse ex_inl [20%N] 20 10%N [97%N] 0, gparse ex_inl [] 20 10%N [97%N] 0 with
  | GOk false s1 _, GOk false s2 _ =>
      t_exp (i_trk s1) = [10%N] /\ t_exp (i_trk s2) = [20%N] /\ t_pos (i_trk s1) = t_pos (i_trk s2)
  | _, _ => False
  end.
Proof. vm_compute. repeat split. Qed.

(* `gparse_inl` composed with `gparse_interp` *)
Lemma gparse_iparse : forall g inl, inl_ok g inl ->
  forall f rule input k, inlined inl rule = false ->
    match gparse g inl f rule input k, iparse g f rule input k with
    | GOk mg sg pg, IOk mi si pi =>
        mg = mi /\ t_pos (i_trk sg) = t_pos (i_trk si) /\
        (mg = true -> pg = pi /\ i_pos sg = i_pos si /\ i_rest sg = i_rest si /\
                      i_user sg = i_user si /\ i_tags sg = i_tags si)
    | GCrash, ICrash => True
    | GUndef, IUndef => True
    | GFuel, IFuel => True
    | _, _ => False
    end.
Proof.
  intros g inl HI f rule input k NI.
  assert (B := gparse_inl g inl HI f rule input k NI).
  assert (GI := gparse_interp g f rule input k).
  destruct (gparse g inl f rule input k) as [m1 s1 p1| | |];
    destruct (gparse g [] f rule input k) as [m2 s2 p2| | |]; try contradiction;
    destruct (iparse g f rule input k) as [mi si pi| | |]; try contradiction; try exact I.
  destruct B as (<- & <- & B1 & B2 & B3 & B4 & _ & _ & _ & _ & B5 & _). destruct GI as [<- GI].
  split; [reflexivity|]. destruct m1.
  - destruct GI as [<- <-]. split; [exact B5|]. intros _. repeat split; assumption.
  - destruct GI as (_&_&_&_&_&_&_&_&_&GT). split; [congruence|]. intros D. discriminate D.
Qed.

(* what a finished run of the interpreter says the reference returns *)
Definition ires_abs (r : ires) : res :=
  match r with
  | IOk true s ps => Ok (abs_st s) ps
  | IOk false s _ => Fail (i_trk s)
  | IUndef => Err
  | ICrash => Fuel
  | IFuel => Fuel
  end.

Lemma iparse_abs g : all_silent_ok g ->
  forall f rule input k, iparse g f rule input k <> IFuel ->
    ires_abs (iparse g f rule input k) <> Fuel /\
    exists f', parse g f' rule input k = ires_abs (iparse g f rule input k).
Proof.
  intros Hsil f rule input k D.
  assert (R := iparse_refines g Hsil f rule input k).
  destruct (iparse g f rule input k) as [[|] s ps| | |]; cbn [ires_abs].
  - split; [discriminate|exact (proj1 R)].
  - split; [discriminate|exact (proj1 R)].
  - contradiction.
  - split; [discriminate|exact R].
  - exfalso. apply D. reflexivity.
Qed.

Lemma iparse_fuel_indep g : all_silent_ok g ->
  forall f1 f2 rule input k,
    iparse g f1 rule input k <> IFuel -> iparse g f2 rule input k <> IFuel ->
    ires_abs (iparse g f1 rule input k) = ires_abs (iparse g f2 rule input k).
Proof.
  intros Hsil f1 f2 rule input k D1 D2.
  destruct (iparse_abs g Hsil f1 rule input k D1) as [N1 [f1' P1]].
  destruct (iparse_abs g Hsil f2 rule input k D2) as [N2 [f2' P2]].
  exact (parse_at g f2' rule input k _ P2 N2 f1' _ P1 N1).
Qed.

Theorem generated_equals_interpreter : forall g inl,
  (forall n r, lookup g n = Some r -> r_silent r = true -> silent_ok g r) ->
  inl_ok g inl ->
  forall f1 f2 rule input k, inlined inl rule = false ->
    match iparse g f1 rule input k, gparse g inl f2 rule input k with
    | IOk true s1 p1, GOk true s2 p2 =>
        p1 = p2 /\ i_pos s1 = i_pos s2 /\ i_user s1 = i_user s2 /\ t_pos (i_trk s1) = t_pos (i_trk s2)
    | IOk false s1 _, GOk false s2 _ => t_pos (i_trk s1) = t_pos (i_trk s2)
    | IUndef, GUndef => True
    | IFuel, _ | _, GFuel => True
    | ICrash, _ | _, GCrash => False
    | _, _ => False            (* finished with different verdicts: impossible *)
    end.
Proof.
  intros g inl Hsil Hinl f1 f2 rule input k NI.
  assert (FI := iparse_fuel_indep g Hsil f1 f2 rule input k).
  assert (A1 := iparse_abs g Hsil f1 rule input k).
  assert (A2 := iparse_abs g Hsil f2 rule input k).
  assert (T := gparse_iparse g inl Hinl f2 rule input k NI).
  destruct (gparse g inl f2 rule input k) as [m2 s2 p2| | |];
    destruct (iparse g f2 rule input k) as [m s p| | |]; try contradiction.
  4:{ destruct (iparse g f1 rule input k) as [[|] ? ?| | |]; exact I. }
  2:{ destruct (A2 ltac:(discriminate)) as [D _]. exfalso. exact (D eq_refl). }
  1: destruct T as (<- & TP & T).
  all: destruct (iparse g f1 rule input k) as [m1 s1 p1| | |]; try exact I;
    try (exfalso; destruct (A1 ltac:(discriminate)) as [D _]; exact (D eq_refl));
    specialize (FI ltac:(discriminate) ltac:(discriminate)); cbn [ires_abs] in FI.
  - (* both finished with a verdict: it is the same one *)
    destruct m1, m2; try discriminate FI.
    + inversion FI as [[E1 E2 E3 E4 E5 E6]]. destruct (T eq_refl) as (-> & T1 & _ & T3 & _).
      repeat split; congruence.
    + inversion FI. congruence.
  - destruct m2; discriminate FI.
  - destruct m1; discriminate FI.
Qed.

Corollary generated_equals_interpreter_nil : forall g,
  (forall n r, lookup g n = Some r -> r_silent r = true -> silent_ok g r) ->
  forall f1 f2 rule input k,
    match iparse g f1 rule input k, gparse g [] f2 rule input k with
    | IOk true s1 p1, GOk true s2 p2 =>
        p1 = p2 /\ i_pos s1 = i_pos s2 /\ i_user s1 = i_user s2 /\ t_pos (i_trk s1) = t_pos (i_trk s2)
    | IOk false s1 _, GOk false s2 _ => t_pos (i_trk s1) = t_pos (i_trk s2)
    | IUndef, GUndef => True
    | IFuel, _ | _, GFuel => True
    | ICrash, _ | _, GCrash => False
    | _, _ => False
    end.
Proof.
  intros g Hsil f1 f2 rule input k.
  apply (generated_equals_interpreter g [] Hsil); [|apply inlined_nil].
  intros n r L IN. rewrite inlined_nil in IN. discriminate IN.
Qed.

Section IMono.
Variable g : grammar.

(* `istep`: the first call in H (the run at the smaller fuel, unfolded) either finished, and IH
   rewrites the goal with the same result, or ran out of fuel, and so did H's run, against D.
   `iloop` repeats this, splitting on whatever else H branches on, until the goal is H. *)
Ltac istep IH L' H D :=
  match type of H with
  | context [match irun g ?f ?t ?s with _ => _ end] =>
      let E := fresh "E" in
      destruct (irun g f t s) eqn:E;
      [ rewrite (IH _ _ _ _ E ltac:(discriminate) L')
      | rewrite (IH _ _ _ _ E ltac:(discriminate) L')
      | rewrite (IH _ _ _ _ E ltac:(discriminate) L')
      | exfalso; apply D; symmetry; exact H ]
  end.

Ltac iloop IH L' H D :=
  repeat first
    [ exact H
    | eapply IH; [exact H|exact D|exact L']
    | istep IH L' H D
    | match type of H with context [match ?x with _ => _ end] => destruct x end ].

Theorem irun_mono : forall f f' t s r, irun g f t s = r -> r <> IFuel -> f <= f' -> irun g f' t s = r.
Proof.
  induction f as [|f IH]; intros f' t s r H D L.
  - cbn in H. exfalso. apply D. symmetry. exact H.
  - destruct f' as [|f']; [lia|]. assert (L' : f <= f') by lia.
    destruct t as [e|es|es|e first| | | |n|r0].
    + destruct e; cbn [irun] in *; iloop IH L' H D.
    + cbn [irun] in *. iloop IH L' H D.
    + cbn [irun] in *. iloop IH L' H D.
    + cbn [irun] in *. destruct first; iloop IH L' H D.
    + cbn [irun] in *. iloop IH L' H D.
    + cbn [irun] in *. iloop IH L' H D.
    + cbn [irun] in *. destruct (has_rule g WS_ID); iloop IH L' H D.
    + cbn [irun] in *. iloop IH L' H D.
    + rewrite irun_rule in *. iloop IH L' H D.
Qed.

End IMono.

(* Termination transfer: if the reference finishes on an input, so do the interpreter and the
   generated code.  InterpProof.sim_all says of a call that runs out of fuel F that its counterpart
   in the reference runs out of every fuel f with 3 f + rk t <= F + 2. *)
Section Term.
Variable g : grammar.
Hypothesis Hsil : forall n r, lookup g n = Some r -> r_silent r = true -> silent_ok g r.

Lemma term_all f t s c : pre g c t s -> sterm g f c t s -> irun g (3 * f + 1) t s <> IFuel.
Proof.
  intros P ST E. assert (X := sim_all g Hsil (3 * f + 1) t c s P). rewrite E in X.
  apply (X f); [assert (A := rk_range t); lia|exact ST].
Qed.

(* if the reference finishes, so does the interpreter *)
Theorem iparse_terminates : forall f rule input k r,
  parse g f rule input k = r -> r <> Fuel -> exists f', iparse g f' rule input k <> IFuel.
Proof.
  intros f rule input k r0 Hr Dr. assert (H : parse g f rule input k <> Fuel) by (rewrite Hr; exact Dr).
  clear r0 Hr Dr. exists (3 * f + 1). unfold iparse.
  destruct (lookup g rule) as [r|] eqn:L; [|discriminate].
  assert (NM := lookup_name _ _ _ L).
  apply (term_all f (IRule r) (ist0 input k) ctx0).
  - apply (pre_rule g ctx0 rule r _ L); [split; reflexivity|right; split; reflexivity].
  - cbn [sterm]. rewrite NM. exact H.
Qed.

End Term.

(* ... and so does the generated code *)
Theorem gparse_terminates : forall g inl,
  (forall n r, lookup g n = Some r -> r_silent r = true -> silent_ok g r) ->
  inl_ok g inl ->
  forall f rule input k r, inlined inl rule = false ->
  parse g f rule input k = r -> r <> Fuel -> exists f', gparse g inl f' rule input k <> GFuel.
Proof.
  intros g inl Hsil Hinl f rule input k r NI Hr Dr.
  destruct (iparse_terminates g Hsil f rule input k r Hr Dr) as [f' H'].
  exists f'.
  assert (T := gparse_iparse g inl Hinl f' rule input k NI).
  destruct (gparse g inl f' rule input k); try discriminate.
  destruct (iparse g f' rule input k); contradiction.
Qed.

Print Assumptions gparse_refines.
Print Assumptions gparse_interp.
Print Assumptions gparse_inl.
Print Assumptions generated_equals_interpreter.
Print Assumptions iparse_terminates.
Print Assumptions gparse_terminates.
