(* SpecShift.v — for SOI-free grammars the reference semantics commutes with shifting all
   positions: the evaluator consults the input only through the remaining text. *)
From Coq Require Import List ZArith Bool Lia ZifyBool.
Import ListNotations.
From PP Require Import Base Syntax Spec SpecSyn.

Section Shift.
Variable g : grammar.
Variable d : N.

Definition shift_trk (t : trk) : trk :=
  if (t_pos t <? 0)%Z then t
  else {| t_pos := t_pos t + Z.of_N d; t_exp := t_exp t; t_unexp := t_unexp t |}.

Definition shift_st (s : st) : st :=
  {| s_pos := s_pos s + d; s_rest := s_rest s; s_stk := s_stk s; s_tags := s_tags s;
     s_trk := shift_trk (s_trk s) |}.

Fixpoint shift_pair (p : pair) : pair :=
  match p with
  | Pair n s e kids tag =>
      Pair n (s + d) (e + d)
        ((fix go (ks : list pair) : list pair :=
            match ks with [] => [] | k :: ks' => shift_pair k :: go ks' end) kids) tag
  end.
Definition shift_pairs (ps : list pair) : list pair := map shift_pair ps.

Lemma shift_pair_eq n s e kids tag :
  shift_pair (Pair n s e kids tag) = Pair n (s + d) (e + d) (shift_pairs kids) tag.
Proof. reflexivity. Qed.

Definition shift_res (r : res) : res :=
  match r with
  | Ok s ps => Ok (shift_st s) (shift_pairs ps)
  | Fail t => Fail (shift_trk t)
  | x => x
  end.

Lemma shift_pairs_app a b : shift_pairs (a ++ b) = shift_pairs a ++ shift_pairs b.
Proof. apply map_app. Qed.

Lemma record_shift c b n s : record c b n (shift_st s) = shift_trk (record c b n s).
Proof.
  unfold record. cbn [s_trk s_pos shift_st].
  destruct (_ || _); [reflexivity|].
  unfold shift_trk at 1 2 3 4.
  destruct (t_pos (s_trk s) <? 0)%Z eqn:E0.
  - (* sentinel *)
    assert (E1 : (t_pos (s_trk s) <? Z.of_N (s_pos s + d))%Z = true) by lia.
    assert (E2 : (t_pos (s_trk s) <? Z.of_N (s_pos s))%Z = true) by lia.
    rewrite E1, E2. unfold shift_trk.
    destruct (Nat.odd _); cbn [t_pos];
      (replace (Z.of_N (s_pos s) <? 0)%Z with false by lia); f_equal; lia.
  - cbn [t_pos t_exp t_unexp].
    replace (t_pos (s_trk s) + Z.of_N d <? Z.of_N (s_pos s + d))%Z
      with (t_pos (s_trk s) <? Z.of_N (s_pos s))%Z by lia.
    destruct (t_pos (s_trk s) <? Z.of_N (s_pos s))%Z eqn:E1.
    + unfold shift_trk. destruct (Nat.odd _); cbn [t_pos];
        (replace (Z.of_N (s_pos s) <? 0)%Z with false by lia); f_equal; lia.
    + replace (Z.of_N (s_pos s + d) =? t_pos (s_trk s) + Z.of_N d)%Z
        with (Z.of_N (s_pos s) =? t_pos (s_trk s))%Z by lia.
      destruct (Z.of_N (s_pos s) =? t_pos (s_trk s))%Z.
      * unfold shift_trk. destruct (Nat.odd _); cbn [t_pos t_exp t_unexp]; rewrite E0; reflexivity.
      * unfold shift_trk. rewrite E0. reflexivity.
Qed.

Lemma adv_shift s n r : adv (shift_st s) n r = shift_st (adv s n r).
Proof. unfold adv, shift_st. cbn. f_equal. lia. Qed.

Lemma shift_same_pos s : shift_res (Ok s []) = Ok (shift_st s) [].
Proof. reflexivity. Qed.

Definition shift_at (f : nat) : Prop :=
  forall c t s, all_task not_soi t = true -> all_grammar not_soi g = true ->
    run g f c t (shift_st s) = shift_res (run g f c t s).

Lemma skip_nosoi e : skip_expr g = Some e -> all_sub not_soi e = true.
Proof. apply skip_expr_all; reflexivity. Qed.

Lemma skip_shift f : shift_at f -> all_grammar not_soi g = true -> forall c s,
  skip_with g (fun c' e' => run g f c' (TEval e')) c (shift_st s)
  = shift_res (skip_with g (fun c' e' => run g f c' (TEval e')) c s).
Proof.
  intros IH Hg c s. unfold skip_with.
  destruct (c_atom c); try reflexivity.
  destruct (skip_expr g) eqn:E; [|reflexivity].
  apply IH; [cbn; apply skip_nosoi; exact E|exact Hg].
Qed.

Lemma push_tag_shift tag s : push_tag tag (shift_st s) = shift_st (push_tag tag s).
Proof. destruct tag; reflexivity. Qed.
Lemma pop_tag_shift tag s : pop_tag tag (shift_st s) = shift_st (pop_tag tag s).
Proof. destruct tag; reflexivity. Qed.

Lemma finish_rule_shift c r s s1 kids :
  finish_rule c r (s_pos (shift_st s)) (shift_st s1) (shift_pairs kids)
  = let '(s2, ps) := finish_rule c r (s_pos s) s1 kids in (shift_st s2, shift_pairs ps).
Proof. unfold finish_rule. destruct (r_silent r); [|destruct (visible c r)]; reflexivity. Qed.

(* a terminal other than SOI looks at the remaining text and the stack only; its result is
   built from the state by adv, set_stk and record *)
Lemma terminal_shift e : terminal e = true -> not_soi e = true -> forall f c s,
  run g (S f) c (TEval e) (shift_st s) = shift_res (run g (S f) c (TEval e) s).
Proof.
  intros T NS f c s.
  assert (ADV : forall n r k, Ok (set_stk (adv (shift_st s) n r) k) []
                              = shift_res (Ok (set_stk (adv s n r) k) []))
    by (intros n r k; rewrite adv_shift; reflexivity).
  assert (REC := record_shift c false (c_rule c) s).
  destruct e; try discriminate; cbn [run shift_st s_rest s_pos s_stk s_trk s_tags];
    cbn [shift_st s_trk] in REC.
  - destruct (strip_prefix _ _); [apply (ADV _ _ (s_stk s))|rewrite REC; reflexivity].
  - destruct (strip_prefix_ci _ _); [apply (ADV _ _ (s_stk s))|rewrite REC; reflexivity].
  - destruct (s_rest s); [rewrite REC; reflexivity|].
    destruct (_ && _); [apply (ADV _ _ (s_stk s))|rewrite REC; reflexivity].
  - (* EAny *) destruct (s_rest s); [reflexivity|apply (ADV _ _ (s_stk s))].
  - (* EEoi *) destruct (s_rest s); reflexivity.
  - destruct (s_rest s); [reflexivity|].
    destruct (in_ranges _ _); [apply (ADV _ _ (s_stk s))|reflexivity].
  - (* EPushLit *) reflexivity.
  - (* EPeek *) destruct (s_stk s); [reflexivity|].
    destruct (strip_prefix _ _); [apply (ADV _ _ (s_stk s))|rewrite REC; reflexivity].
  - (* EPeekSl *) destruct (match_all _ _ _) as [[r n]|]; [apply (ADV _ _ (s_stk s))|rewrite REC; reflexivity].
  - (* EPeekAll *) destruct (match_all _ _ _) as [[r n]|]; [apply (ADV _ _ (s_stk s))|rewrite REC; reflexivity].
  - (* EPop *) destruct (s_stk s); [reflexivity|].
    destruct (strip_prefix _ _); [apply ADV|rewrite REC; reflexivity].
  - (* EPopAll *) destruct (match_all _ _ _) as [[r n]|]; [apply ADV|rewrite REC; reflexivity].
  - (* EDrop *) destruct (s_stk s); [rewrite REC|]; reflexivity.
  - (* ESkipUntil *) apply (ADV _ _ (s_stk s)).
Qed.

Lemma shift_all : forall f, shift_at f.
Proof.
  induction f as [|f IH]; intros c t s Ht Hg; [reflexivity|].
  assert (IHk := skip_shift f IH Hg).
  destruct t as [e|es|es|e]; cbn [all_task] in Ht.
  - destruct (unroll e) as [t|] eqn:U.
    { rewrite !(run_unroll g e t U). apply IH; [|exact Hg].
      revert U Ht. apply all_task_unroll; reflexivity. }
    destruct (terminal e) eqn:T.
    { apply terminal_shift; [exact T|apply all_sub_here; exact Ht]. }
    destruct e; try discriminate; cbn [all_sub] in Ht;
      apply andb_prop in Ht; destruct Ht as [_ Ht]; cbn [run].
    + destruct (lookup g n) as [r|] eqn:EL; [|reflexivity].
      rewrite push_tag_shift, (IH _ (TEval (r_body r)) _ (all_grammar_lookup not_soi g n r Hg EL) Hg).
      destruct (run g f (rule_ctx c r) (TEval (r_body r)) (push_tag tag s)) as [s1 kids|t| |];
        try reflexivity.
      cbn [shift_res]. rewrite finish_rule_shift.
      destruct (finish_rule c r (s_pos s) s1 kids) as [s2 ps]. rewrite pop_tag_shift. reflexivity.
    + (* EOpt *) rewrite (IH c (TEval e) s Ht Hg).
      destruct (run g f c (TEval e) s); reflexivity.
    + (* EStar *) rewrite (IH c (TEval e) s Ht Hg).
      destruct (run g f c (TEval e) s) as [s1 p1|t| |]; try reflexivity.
      cbn [shift_res]. rewrite (IH c (TStar e) s1 Ht Hg).
      destruct (run g f c (TStar e) s1); try reflexivity.
      cbn [shift_res]. rewrite shift_pairs_app. reflexivity.
    + (* EAnd *) rewrite (IH c (TEval e) s Ht Hg).
      destruct (run g f c (TEval e) s); reflexivity.
    + rewrite (IH (neg_ctx c) (TEval e) s Ht Hg).
      destruct (run g f (neg_ctx c) (TEval e) s) as [s1 p1|t| |]; try reflexivity.
      cbn [shift_res]. rewrite <- record_shift. reflexivity.
    + rewrite push_tag_shift, (IH c (TEval e) _ Ht Hg).
      destruct (run g f c (TEval e) (push_tag tag s)); try reflexivity.
      cbn [shift_res]. rewrite pop_tag_shift. reflexivity.
    + (* EPush *) rewrite (IH c (TEval e) s Ht Hg).
      destruct (run g f c (TEval e) s) as [s1 p1|t| |]; try reflexivity.
      cbn [shift_res shift_st s_pos s_rest s_stk].
      replace (s_pos s1 + d - (s_pos s + d))%N with (s_pos s1 - s_pos s)%N by lia.
      reflexivity.
  - cbn [run]. destruct es as [|e1 es']; [reflexivity|].
    cbn [all_list forallb] in Ht. apply andb_prop in Ht. destruct Ht as [H1 H2].
    rewrite (IH c (TEval e1) s H1 Hg).
    destruct (run g f c (TEval e1) s) as [s1 p1|t| |]; try reflexivity.
    cbn [shift_res]. destruct es' as [|e2 es'']; [reflexivity|].
    rewrite IHk.
    destruct (skip_with g _ c s1) as [s2 pw|t| |]; try reflexivity.
    cbn [shift_res]. rewrite (IH c (TSeq (e2 :: es'')) s2 H2 Hg).
    destruct (run g f c (TSeq (e2 :: es'')) s2); try reflexivity.
    cbn [shift_res]. rewrite !shift_pairs_app. reflexivity.
  - cbn [run]. destruct es as [|e1 es']; [reflexivity|].
    cbn [all_list forallb] in Ht. apply andb_prop in Ht. destruct Ht as [H1 H2].
    rewrite (IH c (TEval e1) s H1 Hg).
    destruct (run g f c (TEval e1) s) as [s1 p1|t| |]; try reflexivity.
    cbn [shift_res]. apply (IH c (TAlt es') (set_trk s t) H2 Hg).
  - cbn [run]. rewrite IHk.
    destruct (skip_with g _ c s) as [s2 pw|t| |]; try reflexivity.
    cbn [shift_res]. rewrite (IH c (TEval e) s2 Ht Hg).
    destruct (run g f c (TEval e) s2) as [s3 p3|t| |]; try reflexivity.
    cbn [shift_res]. rewrite (IH c (TStar e) s3 Ht Hg).
    destruct (run g f c (TStar e) s3); try reflexivity.
    cbn [shift_res]. rewrite !shift_pairs_app. reflexivity.
Qed.

End Shift.

(* parse at start_pos = k is parse of the suffix at 0, shifted by k *)
Theorem parse_shift : forall g f rule input k,
  all_grammar not_soi g = true -> k <= length input ->
  parse g f rule input k = shift_res (N.of_nat k) (parse g f rule (skipn k input) 0).
Proof.
  intros g f rule input k Hg Hk. unfold parse, eval.
  assert (E : st0 input k = shift_st (N.of_nat k) (st0 (skipn k input) 0)).
  { unfold st0, shift_st. cbn. f_equal. }
  rewrite E. apply shift_all; [reflexivity|exact Hg].
Qed.

(* characters before start_pos are never consulted *)
Theorem parse_prefix_irrelevant : forall g f rule pre pre' rest,
  all_grammar not_soi g = true -> length pre = length pre' ->
  parse g f rule (pre ++ rest) (length pre) = parse g f rule (pre' ++ rest) (length pre').
Proof.
  intros g f rule pre pre' rest Hg HL.
  rewrite (parse_shift g f rule (pre ++ rest) (length pre) Hg) by (rewrite app_length; lia).
  rewrite (parse_shift g f rule (pre' ++ rest) (length pre') Hg) by (rewrite app_length; lia).
  rewrite !skipn_app, !skipn_all, !Nat.sub_diag. cbn. rewrite HL. reflexivity.
Qed.
