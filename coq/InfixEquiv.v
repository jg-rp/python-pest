(* The library's refactoring of Parser.parse_infix_expression preserved meaning: the old
   right-recursive expression parser (InfixOldDef.v) and the new loop (Front.v) return the same result
   on EVERY token list (same expression, same remaining tokens, same error position), and the front
   end built on the old parser equals `front` on every text (`front_old_equiv`).
   The idea.  At an operator k of precedence q the old parser calls parse_expression at q and combines
   (`old_comb`); the new one runs `infix_run` at q+1.  parse_expression at q is parse_expression at
   q+1 followed by the loop at q (`PEn_split`).  After an operand parsed at q+1 the loop at q goes on
   exactly when the next token is k (`stops_down`), and what it then builds is the node of k over the
   rest of the run, so that combining only conses (`loop_then_comb_eq_run`, `star`). *)
From Coq Require Import List ZArith Bool Lia.
From PP Require Import Base Front FrontProof InfixOldDef.
Import ListNotations.
Close Scope N_scope.
Open Scope nat_scope.

(* refinement of results: `r` is OutOfFuel or equal to `r'` *)

Definition le_res {A} (r r' : res A) : Prop := r = OutOfFuel \/ r = r'.
Infix "⊑" := le_res (at level 70).

Lemma le_res_refl : forall A (r : res A), r ⊑ r.
Proof. right; reflexivity. Qed.
Lemma le_res_fuel : forall A (r : res A), OutOfFuel ⊑ r.
Proof. left; reflexivity. Qed.
Lemma le_res_trans : forall A (a b c : res A), a ⊑ b -> b ⊑ c -> a ⊑ c.
Proof. intros A a b c [ -> | -> ] H; [left; auto|exact H]. Qed.
Lemma le_res_eq : forall A (r r' : res A), r ⊑ r' -> r <> OutOfFuel -> r = r'.
Proof. intros A r r' [H|H] N; [contradiction|exact H]. Qed.
Lemma le_res_bind : forall A B (m m' : res A) (k k' : A -> res B),
  m ⊑ m' -> (forall a, k a ⊑ k' a) -> bind m k ⊑ bind m' k'.
Proof.
  intros A B m m' k k' [ -> | -> ] H; [left; reflexivity|].
  destruct m'; simpl; auto using le_res_refl.
Qed.

Lemma le_res_if : forall A (b : bool) (x x' y y' : res A),
  x ⊑ x' -> y ⊑ y' -> (if b then x else y) ⊑ (if b then x' else y').
Proof. intros A [|] x x' y y' Hx Hy; assumption. Qed.

Lemma bind_ok_inv : forall A B (m : res A) (k : A -> res B) b,
  bind m k = Ok b -> exists a, m = Ok a /\ k a = Ok b.
Proof. intros A B [a|p|c|] k b H; simpl in H; try discriminate. eauto. Qed.

(* one step in showing a term monotone in the function that H speaks of: both sides the same, a
   call of that function, a bind, or a case distinction on the same value *)
Ltac mono_step H :=
  match goal with
  | |- ?a ⊑ ?b => constr_eq a b; apply le_res_refl
  | |- bind _ _ ⊑ bind _ _ => apply le_res_bind; [|first [intros [? ?] | intros ?]]
  | |- (if ?b then _ else _) ⊑ (if ?b then _ else _) => apply le_res_if
  | |- (match ?x with _ => _ end) ⊑ (match ?x with _ => _ end) => destruct x
  | |- _ => apply H
  end.

(* a chain F 0 ⊑ F 1 ⊑ ... : once some F b is not OutOfFuel, every F f approximates it and every
   larger fuel gives the same result *)
Section CHAIN.
  Variable A : Type.
  Variable F : nat -> res A.
  Hypothesis step : forall f, F f ⊑ F (S f).
  Lemma chain_mono : forall f g, f <= g -> F f ⊑ F g.
  Proof.
    intros f g H. induction H; [apply le_res_refl|]. eapply le_res_trans; [exact IHle|apply step].
  Qed.
  Lemma chain_eq : forall b f, F b <> OutOfFuel -> b <= f -> F f = F b.
  Proof. intros b f Hb H. symmetry. apply le_res_eq; auto. apply chain_mono; auto. Qed.
  Lemma chain_approx : forall b f, F b <> OutOfFuel -> F f ⊑ F b.
  Proof.
    intros b f Hb. destruct (Nat.le_gt_cases f b) as [H|H].
    - apply chain_mono; auto.
    - rewrite (chain_eq b f); auto using le_res_refl. lia.
  Qed.
End CHAIN.

(* The old parser over the functionals of FrontProof.v; the functionals are monotone, and what
   `prim_body` returns is never a Sequence or a Choice. *)

Section BODY.
  Variable eof : token.
  Variable builtins : list (text * text).

  Definition rexpr := res (pexpr * list token).

  Notation primary := (primary eof builtins).
  Notation prim_body := (prim_body eof builtins).
  Notation pe_body := (pe_body eof builtins).
  Notation PE_o := (parse_expression_old eof builtins).
  Notation IL_o := (infix_loop_old eof builtins).
  Notation PI_o := (parse_infix_expression_old eof builtins).

  (* how the old parse_infix_expression combined `left op right` (its text) *)
  Definition old_comb (k : kind) (st : nat) (l r : pexpr) (t : list token) : rexpr :=
    if kind_eqb k K_CHOICE_OP then
      match r with
      | PAlt es => Ok (PAlt (l :: es), t)
      | _ => Ok (PAlt [l; r], t)
      end
    else if kind_eqb k K_SEQUENCE_OP then
      match r with
      | PSeq es => Ok (PSeq (l :: es), t)
      | _ => Ok (PSeq [l; r], t)
      end
    else Syn st.

  Lemma parse_expression_old_S : forall f p ts, PE_o (S f) p ts = pe_body (PE_o f) (IL_o f p) ts.
  Proof. reflexivity. Qed.
  Lemma infix_loop_old_S : forall f p l ts, IL_o (S f) p l ts = il_body eof (PI_o f) (IL_o f) p l ts.
  Proof. reflexivity. Qed.
  Lemma parse_infix_expression_old_S : forall f l ts,
    PI_o (S f) l ts = let tok := current eof ts in
                      let* '(r, t) := PE_o f (precedence_of (tk_kind tok)) (tl ts) in
                      old_comb (tk_kind tok) (tk_start tok) l r t.
  Proof. intros. destruct ts; reflexivity. Qed.

  Lemma primary_mono : forall PE PE' tag ts,
    (forall p t, PE p t ⊑ PE' p t) -> primary PE tag ts ⊑ primary PE' tag ts.
  Proof. intros PE PE' tag ts H. unfold FrontProof.primary. cbv zeta. repeat mono_step H. Qed.

  Lemma pe_body_mono : forall B PE PE' (K K' : pexpr -> list token -> res B) ts,
    (forall p t, PE p t ⊑ PE' p t) -> (forall l t, K l t ⊑ K' l t) ->
    pe_body PE K ts ⊑ pe_body PE' K' ts.
  Proof.
    intros B PE PE' K K' ts HPE HK. unfold FrontProof.pe_body.
    apply le_res_bind; [apply le_res_refl|]. intros [tag ts1].
    apply le_res_bind; [apply primary_mono; exact HPE|]. intros [x ts2].
    apply le_res_bind; [apply le_res_refl|]. intros [l t]. apply HK.
  Qed.

  (* parse_infix_expression is called only where the loop does not stop: at an infix operator *)
  Lemma il_body_mono : forall PI PI' IL IL' p l ts,
    (forall l, is_infix (tk_kind (current eof ts)) = true -> PI l ts ⊑ PI' l ts) ->
    (forall p l t, IL p l t ⊑ IL' p l t) ->
    il_body eof PI IL p l ts ⊑ il_body eof PI' IL' p l ts.
  Proof.
    intros PI PI' IL IL' p l ts HPI HIL. unfold il_body, infix_stops. cbv zeta.
    destruct (is_infix (tk_kind (current eof ts))); [|rewrite orb_true_r; apply le_res_refl].
    destruct (_ || _); [apply le_res_refl|].
    apply le_res_bind; [apply HPI; reflexivity|]. intros [l' t]. apply HIL.
  Qed.

  Lemma pi_body_mono : forall RUN RUN' l ts,
    (forall k p ro, k <> K_EOI -> RUN k p ro ts ⊑ RUN' k p ro ts) ->
    pi_body eof RUN l ts ⊑ pi_body eof RUN' l ts.
  Proof.
    intros RUN RUN' l ts H. unfold pi_body. cbv zeta.
    destruct (is_infix (tk_kind (current eof ts))) eqn:E; [|apply le_res_refl].
    apply le_res_bind; [|intros [ops t]; apply le_res_refl].
    apply H, infix_not_eoi, E.
  Qed.

  Lemma run_body_mono : forall PE PE' RUN RUN' k p ro ts,
    (forall p t, PE p t ⊑ PE' p t) -> (forall ro t, RUN k p ro t ⊑ RUN' k p ro t) ->
    run_body eof PE RUN k p ro ts ⊑ run_body eof PE' RUN' k p ro ts.
  Proof.
    intros PE PE' RUN RUN' k p ro ts HPE HRUN. unfold run_body.
    destruct (cur_kind_is eof ts k); [|apply le_res_refl].
    apply le_res_bind; [apply HPE|]. intros [e t]. apply HRUN.
  Qed.

  Definition shape (x : pexpr) : Prop := match x with PSeq _ | PAlt _ => False | _ => True end.
  Definition okP {A} (P : A -> Prop) (r : res A) : Prop := match r with Ok a => P a | _ => True end.
  Lemma okP_bind : forall A B (Q : A -> Prop) (P : B -> Prop) (m : res A) (k : A -> res B),
    okP Q m -> (forall a, Q a -> okP P (k a)) -> okP P (bind m k).
  Proof. intros A B Q P [a|p0|c0|] k H1 H2; simpl in *; auto. Qed.
  Lemma okP_bind_any : forall A B (P : B -> Prop) (m : res A) (k : A -> res B),
    (forall a, okP P (k a)) -> okP P (bind m k).
  Proof. intros A B P [a|p0|c0|] k H; simpl in *; auto. Qed.

  Lemma okP_if : forall A (P : A -> Prop) (b : bool) (x y : res A),
    okP P x -> okP P y -> okP P (if b then x else y).
  Proof. intros A P [|] x y Hx Hy; assumption. Qed.

  (* one step through a term of the parser, down to its results (a property of results only: errors
     and the order of the calls do not matter) *)
  Ltac okp_step :=
    match goal with
    | |- okP _ (bind _ _) => apply okP_bind_any; first [intros [? ?] | intros ?]
    | |- okP _ (if _ then _ else _) => apply okP_if
    | |- okP _ (match ?x with _ => _ end) => destruct x
    | |- okP _ _ => exact I
    end.

  Lemma parse_repeat_shape : forall e ts,
    okP (fun a => shape (fst a)) (parse_repeat_expression eof e ts).
  Proof. intros. unfold parse_repeat_expression, token_int. repeat okp_step. Qed.

  Lemma parse_postfix_shape : forall e ts,
    okP (fun a => match fst a with Some x => shape x | None => True end)
        (parse_postfix_expression eof e ts).
  Proof.
    intros. unfold parse_postfix_expression.
    repeat match goal with |- okP _ (if ?b then _ else _) => destruct b; [simpl; exact I|] end.
    destruct (kind_eqb _ _); [|simpl; exact I].
    eapply okP_bind; [apply parse_repeat_shape|]. intros [x t] H. exact H.
  Qed.

  Lemma postfix_loop_shape : forall f l ts, shape l ->
    okP (fun a => shape (fst a)) (postfix_loop eof f l ts).
  Proof.
    induction f as [|f IH]; intros l ts Hl; [exact I|]. cbn [postfix_loop].
    eapply okP_bind; [apply parse_postfix_shape|]. intros [[x|] t] H; simpl in H.
    - apply IH; auto.
    - exact Hl.
  Qed.

  Lemma parse_peek_shape : forall tag ts,
    okP (fun a => shape (fst a)) (parse_peek_expression eof tag ts).
  Proof. intros. unfold parse_peek_expression, token_int. repeat okp_step. Qed.

  Lemma primary_shape : forall PE tag ts, okP (fun a => shape (fst a)) (primary PE tag ts).
  Proof.
    intros. unfold FrontProof.primary. cbv zeta.
    repeat match goal with
           | |- okP _ (parse_peek_expression _ _ _) => apply parse_peek_shape
           | _ => okp_step
           end.
  Qed.

  Lemma prim_ok_shape : forall PE ts x t, prim_body PE ts = Ok (x, t) -> shape x.
  Proof.
    intros PE ts x t H.
    assert (S : okP (fun a => shape (fst a)) (prim_body PE ts)); [|rewrite H in S; exact S].
    unfold FrontProof.prim_body, FrontProof.pe_body. apply okP_bind_any. intros [tag ts2].
    eapply okP_bind; [apply primary_shape|]. intros [l ts3] Hl.
    eapply okP_bind; [apply postfix_loop_shape; exact Hl|]. intros [l' ts4] Hl'. exact Hl'.
  Qed.

End BODY.

(* The new parser: monotone in the fuel; the four functions at the fuel that suffices (PEn, ILn, PIn,
   RUNn) are fixed points of the functionals. *)

Section NEW.
  Variable eof : token.
  Variable builtins : list (text * text).
  Hypothesis eof_kind : tk_kind eof = K_EOI.

  Notation PE_n := (parse_expression eof builtins).
  Notation IL_n := (infix_loop eof builtins).
  Notation PI_n := (parse_infix_expression eof builtins).
  Notation RUN_n := (infix_run eof builtins).

  Lemma new_mono : forall f,
    (forall p ts, PE_n f p ts ⊑ PE_n (S f) p ts) /\
    (forall p l ts, IL_n f p l ts ⊑ IL_n (S f) p l ts) /\
    (forall l ts, PI_n f l ts ⊑ PI_n (S f) l ts) /\
    (forall k p ro ts, RUN_n f k p ro ts ⊑ RUN_n (S f) k p ro ts).
  Proof.
    induction f as [|f (IHPE & IHIL & IHPI & IHRUN)].
    { repeat split; intros; apply le_res_fuel. }
    split; [|split; [|split]]; intros.
    - rewrite (parse_expression_S _ _ f), (parse_expression_S _ _ (S f)). apply pe_body_mono; auto.
    - rewrite (infix_loop_S _ _ f), (infix_loop_S _ _ (S f)). apply il_body_mono; auto.
    - rewrite (parse_infix_expression_S _ _ f), (parse_infix_expression_S _ _ (S f)). apply pi_body_mono; auto.
    - rewrite (infix_run_S _ _ f), (infix_run_S _ _ (S f)). apply run_body_mono; auto.
  Qed.

  Definition fPE (ts : list token) := 4 * length ts + 4.
  Definition fIL (ts : list token) := 4 * length ts + 3.
  Definition fPI (ts : list token) := 4 * length ts + 2.
  Definition fRUN (ts : list token) := 4 * length ts + 1.

  Definition PEn (p : N) (ts : list token) := PE_n (fPE ts) p ts.
  Definition ILn (p : N) (l : pexpr) (ts : list token) := IL_n (fIL ts) p l ts.
  Definition PIn (l : pexpr) (ts : list token) := PI_n (fPI ts) l ts.
  Definition RUNn (k : kind) (p : N) (ro : list pexpr) (ts : list token) := RUN_n (fRUN ts) k p ro ts.

  (* `good` joins "not OutOfFuel" to "error position <= L": to get the first from
     FrontProof.parse_group_good for an arbitrary token list, take L beyond all token starts *)
  Lemma exists_L : forall ts, exists L, tok_ok L eof /\ ts_ok L ts.
  Proof.
    intros ts. exists (list_max (map tk_start (eof :: ts))).
    pose proof (proj1 (list_max_le (map tk_start (eof :: ts)) _) (le_n _)) as H.
    rewrite Forall_map in H. inversion H; subst. split; assumption.
  Qed.

  Lemma new_suff : forall ts,
    (forall p, PEn p ts <> OutOfFuel) /\ (forall p l, ILn p l ts <> OutOfFuel) /\
    (forall l, PIn l ts <> OutOfFuel) /\ (forall k p ro, k <> K_EOI -> RUNn k p ro ts <> OutOfFuel).
  Proof.
    intros ts. destruct (exists_L ts) as (L & He & Ht).
    pose proof (parse_group_good L eof builtins eof_kind He) as G.
    repeat split; intros; eapply good_not_fuel; apply G; auto.
  Qed.

  Lemma PEn_shrink : forall p ts e t, PEn p ts = Ok (e, t) -> length t <= length ts.
  Proof.
    intros p ts e t H. destruct (exists_L ts) as (L & He & Ht).
    apply (good_ok L _ _ _ _ (proj1 (parse_group_good L eof builtins eof_kind He _) p ts Ht (le_n _)) H).
  Qed.
  Lemma PIn_lt : forall l ts e t, PIn l ts = Ok (e, t) -> length t < length ts.
  Proof.
    intros l ts e t H. destruct (exists_L ts) as (L & He & Ht).
    apply (good_ok L _ _ _ _ (proj1 (proj2 (proj2 (parse_group_good L eof builtins eof_kind He _))) l ts Ht (le_n _)) H).
  Qed.

  Lemma PE_approx : forall f p ts, PE_n f p ts ⊑ PEn p ts.
  Proof.
    intros. apply (chain_approx _ (fun f => PE_n f p ts)); [intros; apply new_mono|apply new_suff].
  Qed.
  Lemma IL_approx : forall f p l ts, IL_n f p l ts ⊑ ILn p l ts.
  Proof.
    intros. apply (chain_approx _ (fun f => IL_n f p l ts)); [intros; apply new_mono|apply new_suff].
  Qed.
  Lemma PI_approx : forall f l ts, PI_n f l ts ⊑ PIn l ts.
  Proof.
    intros. apply (chain_approx _ (fun f => PI_n f l ts)); [intros; apply new_mono|apply new_suff].
  Qed.
  Lemma RUN_approx : forall f k p ro ts, k <> K_EOI -> RUN_n f k p ro ts ⊑ RUNn k p ro ts.
  Proof.
    intros. apply (chain_approx _ (fun f => RUN_n f k p ro ts)); [intros; apply new_mono|apply new_suff; auto].
  Qed.
  Lemma PE_fuel : forall f p ts, fPE ts <= f -> PE_n f p ts = PEn p ts.
  Proof.
    intros. apply (chain_eq _ (fun f => PE_n f p ts)); auto; [intros; apply new_mono|apply new_suff].
  Qed.

  Notation infix_stops := (infix_stops eof).

  Lemma eqPE : forall p ts, PEn p ts = pe_body eof builtins PEn (ILn p) ts.
  Proof.
    intros. apply le_res_eq; [|apply new_suff]. unfold PEn at 1, fPE. rewrite Nat.add_succ_r, parse_expression_S.
    apply pe_body_mono; intros; [apply PE_approx|apply IL_approx].
  Qed.

  Lemma eqIL : forall p l ts, ILn p l ts = il_body eof PIn ILn p l ts.
  Proof.
    intros. apply le_res_eq; [|apply new_suff]. unfold ILn at 1, fIL. rewrite Nat.add_succ_r, infix_loop_S.
    apply il_body_mono; intros; [apply PI_approx|apply IL_approx].
  Qed.

  Lemma eqPI : forall l ts, PIn l ts = pi_body eof RUNn l ts.
  Proof.
    intros. apply le_res_eq; [|apply new_suff]. unfold PIn at 1, fPI.
    rewrite Nat.add_succ_r, parse_infix_expression_S.
    apply pi_body_mono; intros; apply RUN_approx; auto.
  Qed.

  Lemma eqRUN : forall k p ro ts, k <> K_EOI -> RUNn k p ro ts = run_body eof PEn RUNn k p ro ts.
  Proof.
    intros k p ro ts Hk. apply le_res_eq; [|apply new_suff; auto]. unfold RUNn at 1, fRUN.
    rewrite Nat.add_succ_r, infix_run_S.
    apply run_body_mono; intros; [apply PE_approx|apply RUN_approx; auto].
  Qed.

  Lemma infix_cases : forall k, is_infix k = true -> k = K_CHOICE_OP \/ k = K_SEQUENCE_OP.
  Proof. destruct k; simpl; intros; try discriminate; auto. Qed.

  Lemma stops_up : forall q ts, infix_stops (q + 1) ts = false -> infix_stops q ts = false.
  Proof.
    intros q ts. unfold infix_stops. cbv zeta.
    destruct (kind_eqb _ K_EOI); [discriminate|]. destruct (negb _); [rewrite orb_true_r; discriminate|].
    rewrite !orb_false_r. simpl. rewrite !N.ltb_ge. lia.
  Qed.

  (* k infix, q its precedence: at a place where the loop at q+1 stops, the loop at q continues
     exactly when the next token is the operator k *)
  Lemma stops_down : forall k ts, is_infix k = true ->
    infix_stops (precedence_of k + 1) ts = true -> infix_stops (precedence_of k) ts = negb (cur_kind_is eof ts k).
  Proof.
    intros k ts Hk. unfold infix_stops, cur_kind_is. cbv zeta.
    destruct (infix_cases k Hk); subst; destruct (tk_kind (current eof ts)); vm_compute; congruence.
  Qed.

  (* The lemmas about the loops go by induction on the number of tokens left. *)
  Notation len_ind := (induction_ltof1 _ (@length token)).

  Lemma ILn_stop : forall ts p l y t', ILn p l ts = Ok (y, t') -> infix_stops p t' = true.
  Proof.
    induction ts as [ts IH] using len_ind. intros p l y t' H. rewrite eqIL in H. unfold il_body in H.
    destruct (infix_stops p ts) eqn:B; [inversion H; subst; exact B|].
    apply bind_ok_inv in H. destruct H as ([l1 t1] & H1 & H2). apply PIn_lt in H1.
    exact (IH t1 H1 _ _ _ _ H2).
  Qed.

  Lemma PEn_prim : forall p ts,
    PEn p ts = let* '(x, t) := prim_body eof builtins PEn ts in ILn p x t.
  Proof. intros. rewrite eqPE. apply pe_body_bind. Qed.

  Lemma PEn_stop : forall p ts y t', PEn p ts = Ok (y, t') -> infix_stops p t' = true.
  Proof.
    intros p ts y t' H. rewrite PEn_prim in H. apply bind_ok_inv in H.
    destruct H as ([x t] & _ & H). exact (ILn_stop _ _ _ _ _ H).
  Qed.

  Definition notk (k : kind) (x : pexpr) : Prop :=
    if kind_eqb k K_CHOICE_OP then match x with PAlt _ => False | _ => True end
    else match x with PSeq _ => False | _ => True end.

  (* what the infix loop returns: its argument, or the node of an operator at or above its level *)
  Lemma ILn_result : forall ts p l y t', ILn p l ts = Ok (y, t') ->
    y = l \/ exists k ops, is_infix k = true /\ (p <= precedence_of k)%N /\ y = infix_node k ops.
  Proof.
    induction ts as [ts IH] using len_ind. intros p l y t' H. rewrite eqIL in H. unfold il_body in H.
    destruct (infix_stops p ts) eqn:B; [inversion H; auto|]. right.
    apply bind_ok_inv in H. destruct H as ([l1 t1] & H1 & H2).
    destruct (IH t1 (PIn_lt _ _ _ _ H1) _ _ _ _ H2) as [->|?]; [|assumption].
    (* l1 is what parse_infix_expression built for the operator at the cursor *)
    rewrite eqPI in H1. unfold pi_body in H1. cbv zeta in H1. unfold infix_stops in B. cbv zeta in B.
    apply orb_false_iff in B as [B Bi]. apply orb_false_iff in B as [_ B].
    apply negb_false_iff in Bi. apply N.ltb_ge in B. rewrite Bi in H1.
    apply bind_ok_inv in H1. destruct H1 as ([ops t2] & _ & H1). inversion H1; subst. eauto.
  Qed.

  (* an operand of k is parsed one level above k: it is a primary or the node of another operator *)
  Lemma operand_notk : forall k ts y t, is_infix k = true ->
    PEn (precedence_of k + 1) ts = Ok (y, t) -> notk k y.
  Proof.
    intros k ts y t Hk H. rewrite PEn_prim in H. apply bind_ok_inv in H.
    destruct H as ([x t1] & H1 & H2). apply prim_ok_shape in H1.
    destruct (ILn_result _ _ _ _ _ H2) as [->|(k' & ops & Hk' & Hp & ->)].
    - unfold notk. destruct (kind_eqb k K_CHOICE_OP); destruct x; try contradiction; exact I.
    - destruct (infix_cases k Hk); destruct (infix_cases k' Hk'); subst;
        unfold precedence_of, PRECEDENCE_CHOICE, PRECEDENCE_SEQUENCE in Hp; try lia. exact I.
  Qed.

  (* infix_loop q = infix_loop (q+1) then infix_loop q *)
  Lemma ILn_split : forall t q x,
    ILn q x t = let* '(y, t') := ILn (q + 1) x t in ILn q y t'.
  Proof.
    induction t as [t IH] using len_ind. intros q x. rewrite (eqIL (q + 1)). unfold il_body at 1.
    destruct (infix_stops (q + 1) t) eqn:B; [reflexivity|].
    rewrite (eqIL q). unfold il_body. rewrite (stops_up _ _ B), bind_assoc. apply bind_ext. intros [x' t1] H1.
    apply IH. exact (PIn_lt _ _ _ _ H1).
  Qed.

  Lemma PEn_split : forall q ts, PEn q ts = let* '(y, t') := PEn (q + 1) ts in ILn q y t'.
  Proof.
    intros. rewrite (PEn_prim q), (PEn_prim (q + 1)), bind_assoc.
    apply bind_ext. intros [x t] _. apply ILn_split.
  Qed.

  Lemma run_step_lt : forall t k e t2 p, k <> K_EOI -> cur_kind_is eof t k = true ->
    PEn p (tl t) = Ok (e, t2) -> length t2 < length t.
  Proof.
    intros t k e t2 p Hk E H. apply PEn_shrink in H.
    pose proof (tl_lt t (current_kind_nonempty eof eof_kind t k E Hk)). lia.
  Qed.

  Lemma RUNn_acc : forall t k p ro l, k <> K_EOI ->
    RUNn k p (ro ++ [l]) t = let* '(ops, t1) := RUNn k p ro t in Ok (l :: ops, t1).
  Proof.
    induction t as [t IH] using len_ind. intros k p ro l Hk. rewrite !eqRUN by auto. unfold run_body.
    destruct (cur_kind_is eof t k) eqn:E; [|simpl; rewrite rev_unit; reflexivity].
    rewrite bind_assoc. apply bind_ext. intros [e t2] H2.
    apply (IH t2 (run_step_lt _ _ _ _ _ Hk E H2) k p (e :: ro) l Hk).
  Qed.

  Lemma RUNn_stop : forall t k p ro ops t1, k <> K_EOI ->
    infix_stops p t = true -> RUNn k p ro t = Ok (ops, t1) ->
    infix_stops p t1 = true /\ cur_kind_is eof t1 k = false.
  Proof.
    induction t as [t IH] using len_ind. intros k p ro ops t1 Hk B H. rewrite eqRUN in H by auto. unfold run_body in H.
    destruct (cur_kind_is eof t k) eqn:E; [|inversion H; subst; auto].
    apply bind_ok_inv in H. destruct H as ([e t2] & H2 & H3).
    apply (IH t2 (run_step_lt _ _ _ _ _ Hk E H2) k p (e :: ro) ops t1 Hk); [|exact H3].
    exact (PEn_stop _ _ _ _ H2).
  Qed.

  Lemma old_comb_operand : forall k st l y t, is_infix k = true -> notk k y ->
    old_comb k st l y t = Ok (infix_node k [l; y], t).
  Proof.
    intros k st l y t Hk Hy. destruct (infix_cases k Hk); subst; unfold notk, old_comb, infix_node in *; simpl in *;
      destruct y; simpl in *; try contradiction; reflexivity.
  Qed.
  Lemma old_comb_run : forall k st l ops t, is_infix k = true ->
    old_comb k st l (infix_node k ops) t = Ok (infix_node k (l :: ops), t).
  Proof. intros k st l ops t Hk. destruct (infix_cases k Hk); subst; reflexivity. Qed.

  (* after an operand y at level q+1: the old loop-and-combine = the rest of the new run *)
  Lemma loop_then_comb_eq_run : forall k st l y t', is_infix k = true -> notk k y ->
    infix_stops (precedence_of k + 1) t' = true ->
    (let* '(r, t) := ILn (precedence_of k) y t' in old_comb k st l r t)
    = (let* '(ops, t) := RUNn k (precedence_of k + 1) [y; l] t' in Ok (infix_node k ops, t)).
  Proof.
    intros k st l y t' Hk Hy B. pose proof (infix_not_eoi k Hk) as Hne.
    pose proof (stops_down k t' Hk B) as Bq.
    rewrite eqIL. unfold il_body. rewrite Bq. destruct (cur_kind_is eof t' k) eqn:E; cbv beta iota delta [negb].
    - (* the run continues *)
      pose proof (kind_eqb_eq _ _ E) as Ek.
      rewrite eqPI. unfold pi_body. cbv zeta. rewrite Ek, Hk. cbv beta iota delta [negb].
      rewrite !bind_assoc.
      change [y; l] with ([y] ++ [l]). rewrite RUNn_acc by auto.
      rewrite bind_assoc. apply bind_ext. intros [ops t1] H1.
      destruct (RUNn_stop _ _ _ _ _ _ Hne B H1) as [B1 E1].
      cbn [bind]. rewrite eqIL. unfold il_body. rewrite (stops_down k t1 Hk B1), E1. cbv beta iota delta [negb]. cbn [bind].
      apply old_comb_run; auto.
    - (* the run is over *)
      cbn [bind]. rewrite eqRUN by auto. unfold run_body. rewrite E. cbn [bind rev app]. apply old_comb_operand; auto.
  Qed.

  (* old-style `right = parse_expression(q); combine` (on the new parse_expression) = the new
     parse_infix_expression *)
  Lemma star : forall tk ts0 l, is_infix (tk_kind tk) = true ->
    (let* '(r, t) := PEn (precedence_of (tk_kind tk)) ts0 in old_comb (tk_kind tk) (tk_start tk) l r t)
    = PIn l (tk :: ts0).
  Proof.
    intros tk ts0 l Hk. set (k := tk_kind tk) in *. pose proof (infix_not_eoi k Hk) as Hne.
    rewrite eqPI. unfold pi_body. cbv zeta. simpl current. fold k. rewrite Hk. cbv beta iota delta [negb].
    rewrite eqRUN by auto. unfold run_body, cur_kind_is at 1. simpl current. fold k. rewrite kind_eqb_refl.
    simpl tl. rewrite PEn_split, !bind_assoc. apply bind_ext. intros [y t'] H.
    apply loop_then_comb_eq_run; auto.
    - eapply operand_notk; eauto.
    - eapply PEn_stop; eauto.
  Qed.

End NEW.

(* The old parser never runs out of the fuel 3 * |tokens| + 3 *)

Section OLD_SUFF.
  Variable L : nat.
  Variable eof : token.
  Variable builtins : list (text * text).
  Hypothesis eof_kind : tk_kind eof = K_EOI.
  Hypothesis eof_ok : tok_ok L eof.

  (* whatever the right operand is, the tokens left stay the same *)
  Lemma old_comb_good : forall (Q : pexpr * list token -> Prop) k st l r t,
    st <= L -> (forall e, Q (e, t)) -> good L Q (old_comb k st l r t).
  Proof.
    intros Q k st l r t Hst HQ. unfold old_comb.
    destruct (kind_eqb k K_CHOICE_OP); [destruct r; apply HQ|].
    destruct (kind_eqb k K_SEQUENCE_OP); [destruct r; apply HQ|].
    exact Hst.
  Qed.

  Lemma old_group_good : forall fuel,
    (forall prec ts, ts_ok L ts -> 3 * length ts + 3 <= fuel ->
       good L (ppost L ts) (parse_expression_old eof builtins fuel prec ts)) /\
    (forall prec l ts, ts_ok L ts -> 3 * length ts + 2 <= fuel ->
       good L (ppost L ts) (infix_loop_old eof builtins fuel prec l ts)) /\
    (forall l ts, ts_ok L ts -> ts <> [] -> 3 * length ts + 1 <= fuel ->
       good L (ppost_lt L ts) (parse_infix_expression_old eof builtins fuel l ts)).
  Proof.
    induction fuel as [|fuel (IHPE & IHIL & IHPI)].
    { repeat split; intros; lia. }
    split; [|split].
    - intros prec ts Hok Hf. rewrite parse_expression_old_S.
      apply (pe_body_good L eof builtins eof_kind eof_ok); [auto|intros; apply IHPE; auto; lia|].
      intros l t Ht Hl.
      eapply good_weaken; [apply IHIL; auto; lia|]. intros a [A B]. split; auto. lia.
    - intros prec l ts Hok Hf. rewrite infix_loop_old_S.
      apply (il_body_good L eof eof_kind); [auto|intros; apply IHPI; auto; lia|].
      intros l' t Ht Hl. apply IHIL; auto; lia.
    - intros l ts Hok Hn Hf. rewrite parse_infix_expression_old_S. cbv zeta. pose proof (tl_lt ts Hn) as Hlt.
      eapply good_bind; [apply IHPE; [apply tl_ok; auto|lia]|].
      intros [rgt ts2] [O2 R2]. cbn [fst snd] in *.
      apply old_comb_good; [exact (current_ok L eof eof_ok ts Hok)|].
      intros e. split; [exact O2|]. cbn [snd]. lia.
  Qed.
End OLD_SUFF.

(* The old parser refines the new one at sufficient fuel, hence equals it *)

Section EQUIV.
  Variable eof : token.
  Variable builtins : list (text * text).
  Hypothesis eof_kind : tk_kind eof = K_EOI.

  Notation PE_n := (parse_expression eof builtins).
  Notation PE_o := (parse_expression_old eof builtins).
  Notation IL_o := (infix_loop_old eof builtins).
  Notation PI_o := (parse_infix_expression_old eof builtins).
  Notation PEn := (PEn eof builtins).
  Notation ILn := (ILn eof builtins).
  Notation PIn := (PIn eof builtins).

  Lemma old_refines_new : forall f,
    (forall p ts, PE_o f p ts ⊑ PEn p ts) /\
    (forall p l ts, IL_o f p l ts ⊑ ILn p l ts) /\
    (forall l ts, is_infix (tk_kind (current eof ts)) = true -> PI_o f l ts ⊑ PIn l ts).
  Proof.
    induction f as [|f (IHPE & IHIL & IHPI)].
    { repeat split; intros; apply le_res_fuel. }
    split; [|split].
    - intros p ts. rewrite parse_expression_old_S, (eqPE eof builtins eof_kind). apply pe_body_mono; auto.
    - intros p l ts. rewrite infix_loop_old_S, (eqIL eof builtins eof_kind). apply il_body_mono; auto.
    - intros l ts Hk.
      destruct ts as [|tk ts0]; [simpl in Hk; rewrite eof_kind in Hk; discriminate|]. simpl in Hk.
      rewrite <- (star eof builtins eof_kind tk ts0 l Hk), parse_infix_expression_old_S. cbv zeta. cbn [current tl].
      apply le_res_bind; [apply IHPE|]. intros [r t]. apply le_res_refl.
  Qed.

  (* for every token list, every entry precedence and all sufficient fuels (in particular those the
     front ends supply) *)
  Theorem parse_expression_equiv : forall ts prec f_old f_new,
    3 * length ts + 3 <= f_old -> 4 * length ts + 4 <= f_new ->
    parse_expression_old eof builtins f_old prec ts = parse_expression eof builtins f_new prec ts.
  Proof.
    intros ts prec f1 f2 H1 H2.
    rewrite (PE_fuel eof builtins eof_kind f2 prec ts) by exact H2.
    apply le_res_eq; [apply old_refines_new|].
    destruct (exists_L eof ts) as (L & He & Ht).
    exact (good_not_fuel L _ _ _ (proj1 (old_group_good L eof builtins eof_kind He f1) prec ts Ht H1)).
  Qed.
End EQUIV.

(* The front end built on the old expression parser *)

Section OLD_FRONT.
  Variable eof : token.
  Variable builtins : list (text * text).

  Fixpoint parse_rules_loop_old (fuel : nat) (rules : list (text * prule)) (ts : list token)
    : res (list (text * prule)) :=
    match fuel with
    | O => OutOfFuel
    | S fuel' =>
        if cur_kind_is eof ts K_EOI then Ok rules
        else
          let* '(rule_doc, ts) := doc_loop eof (S (length ts)) K_RULE_DOC [] ts in
          if cur_kind_is eof ts K_EOI then Ok rules
          else
            let* '(identifier, ts) := eat eof K_IDENTIFIER ts in
            let* '(_, ts) := eat eof K_ASSIGN_OP ts in
            let '(modifier, ts) := parse_modifier eof ts in
            let* '(_, ts) := eat eof K_LBRACE ts in
            let* '(expression, ts) :=
              parse_expression_old eof builtins (3 * length ts + 3) PRECEDENCE_LOWEST ts in
            let* '(_, ts) := eat eof K_RBRACE ts in
            let name := tk_value identifier in
            parse_rules_loop_old fuel'
              (dict_set name (mkprule name modifier expression rule_doc) rules) ts
    end.

  Definition parse_old (ts : list token) : res (list (text * prule)) :=
    let* '(_, ts) := doc_loop eof (S (length ts)) K_GRAMMAR_DOC [] ts in
    parse_rules_loop_old (S (length ts)) [] ts.

  Hypothesis eof_kind : tk_kind eof = K_EOI.

  Lemma parse_rules_loop_old_equiv : forall fuel rules ts,
    parse_rules_loop_old fuel rules ts = parse_rules_loop eof builtins fuel rules ts.
  Proof.
    induction fuel as [|fuel IH]; intros rules ts; [reflexivity|].
    cbn [parse_rules_loop_old parse_rules_loop].
    destruct (cur_kind_is eof ts K_EOI); [reflexivity|].
    apply bind_ext. intros [rule_doc ts1] _.
    destruct (cur_kind_is eof ts1 K_EOI); [reflexivity|].
    apply bind_ext. intros [identifier ts2] _.
    apply bind_ext. intros [x ts3] _.
    destruct (parse_modifier eof ts3) as [modifier ts4].
    apply bind_ext. intros [y ts5] _.
    unfold pexpr_fuel.
    rewrite (parse_expression_equiv eof builtins eof_kind ts5 PRECEDENCE_LOWEST
               (3 * length ts5 + 3) (4 * length ts5 + 4)) by lia.
    apply bind_ext. intros [expression ts6] _.
    apply bind_ext. intros [z ts7] _. apply IH.
  Qed.

  Lemma parse_old_equiv : forall ts, parse_old ts = parse eof builtins ts.
  Proof.
    intros. unfold parse_old, parse. apply bind_ext. intros [d ts1] _.
    apply parse_rules_loop_old_equiv.
  Qed.
End OLD_FRONT.

(* `front` with only the expression parser replaced by the old one *)
Definition front_old (grammar : text) : fres :=
  match (let* tokens := tokenize grammar in
         parse_old (mktoken K_EOI [] (length grammar)) BUILTIN tokens) with
  | Ok rules => FOk (merge_rules rules)
  | Syn p => FSyntax p
  | Crash k => FCrash k
  | OutOfFuel => FFuel
  end.

Theorem front_old_equiv : forall t, front_old t = front t.
Proof.
  intros t. unfold front_old, front.
  replace (let* tokens := tokenize t in parse_old (mktoken K_EOI [] (length t)) BUILTIN tokens)
    with (let* tokens := tokenize t in parse (mktoken K_EOI [] (length t)) BUILTIN tokens); [reflexivity|].
  apply bind_ext. intros tokens _. symmetry. apply parse_old_equiv. reflexivity.
Qed.

Print Assumptions parse_expression_equiv.
Print Assumptions front_old_equiv.
