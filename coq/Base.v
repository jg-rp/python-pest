(* Base.v — texts, prefixes, small list utilities shared by all models.
   Python `str` is modelled as a list of code points (N); positions are N. *)
From Coq Require Import List ZArith Bool.
Import ListNotations.

Notation cp := N (only parsing).
Notation text := (list N) (only parsing).

(* `rest.startswith(lit)`: returns the remainder after `lit` when `lit` is a prefix. *)
Fixpoint strip_prefix (lit rest : text) : option text :=
  match lit with
  | [] => Some rest
  | c :: lit' =>
      match rest with
      | [] => None
      | d :: rest' => if N.eqb c d then strip_prefix lit' rest' else None
      end
  end.

Definition lenN {A} (l : list A) : N := N.of_nat (length l).

(* ASCII-only case folding, as pest's `match_insensitive` (eq_ignore_ascii_case). *)
Definition ascii_lower (c : cp) : cp :=
  if (N.leb 65 c && N.leb c 90)%bool then (c + 32)%N else c.

Fixpoint strip_prefix_ci (lit rest : text) : option text :=
  match lit with
  | [] => Some rest
  | c :: lit' =>
      match rest with
      | [] => None
      | d :: rest' =>
          if N.eqb (ascii_lower c) (ascii_lower d) then strip_prefix_ci lit' rest' else None
      end
  end.

Fixpoint in_ranges (c : cp) (rs : list (N * N)) : bool :=
  match rs with
  | [] => false
  | (lo, hi) :: rs' => (N.leb lo c && N.leb c hi) || in_ranges c rs'
  end.

Fixpoint memN (x : N) (l : list N) : bool :=
  match l with [] => false | y :: l' => N.eqb x y || memN x l' end.

Definition addN (x : N) (l : list N) : list N := if memN x l then l else l ++ [x].

(* Python slice semantics `l[a:b]` for optional, possibly negative bounds. *)
Definition norm_index (len : Z) (i : Z) : Z :=
  if (i <? 0)%Z then Z.max 0 (len + i) else Z.min len i.

Definition py_slice {A} (l : list A) (a b : option Z) : list A :=
  let len := Z.of_nat (length l) in
  let lo := match a with None => 0%Z | Some i => norm_index len i end in
  let hi := match b with None => len | Some i => norm_index len i end in
  if (lo <? hi)%Z then firstn (Z.to_nat (hi - lo)) (skipn (Z.to_nat lo) l) else [].

Fixpoint find_sub_from (sub rest : text) (acc : N) {struct rest} : option N :=
  (* earliest offset (relative, added to acc) at which sub occurs in rest *)
  match strip_prefix sub rest with
  | Some _ => Some acc
  | None => match rest with [] => None | _ :: r => find_sub_from sub r (acc + 1)%N end
  end.

Definition find_sub (sub rest : text) : option N := find_sub_from sub rest 0%N.

Lemma strip_prefix_app : forall lit rest r, strip_prefix lit rest = Some r -> rest = lit ++ r.
Proof.
  induction lit as [|c lit IH]; intros rest r H; cbn in *.
  - congruence.
  - destruct rest as [|d rest']; [discriminate|].
    destruct (N.eqb_spec c d) as [->|]; [|discriminate].
    f_equal. apply IH. exact H.
Qed.

Lemma strip_prefix_app_iff : forall lit r, strip_prefix lit (lit ++ r) = Some r.
Proof.
  induction lit as [|c lit IH]; intros r; cbn; [reflexivity|].
  rewrite N.eqb_refl. apply IH.
Qed.

Lemma strip_prefix_ci_length : forall lit rest r,
  strip_prefix_ci lit rest = Some r -> length rest = length lit + length r.
Proof.
  induction lit as [|c lit IH]; intros rest r H; cbn in *.
  - congruence.
  - destruct rest as [|d rest']; [discriminate|].
    destruct (N.eqb _ _); [|discriminate].
    cbn. f_equal. apply IH. exact H.
Qed.

Lemma strip_prefix_ci_suffix : forall lit rest r,
  strip_prefix_ci lit rest = Some r -> r = skipn (length lit) rest.
Proof.
  induction lit as [|c lit IH]; intros rest r H; cbn in *.
  - congruence.
  - destruct rest as [|d rest']; [discriminate|].
    destruct (N.eqb _ _); [|discriminate].
    apply IH. exact H.
Qed.

(* list facts that several files use *)

Lemma filter_length_le {A} (p : A -> bool) l : length (filter p l) <= length l.
Proof.
  induction l as [|x l IH]; cbn; [apply le_n|].
  destruct (p x); cbn; [apply le_n_S|apply le_S]; exact IH.
Qed.

Lemma filter_full {A} (p : A -> bool) : forall l, length l <= length (filter p l) -> forallb p l = true.
Proof.
  induction l as [|x l IH]; cbn; intros H; [reflexivity|].
  destruct (p x) eqn:E; cbn in *.
  - apply IH. apply le_S_n. exact H.
  - exfalso. exact (Nat.nle_succ_diag_l _ (Nat.le_trans _ _ _ H (filter_length_le p l))).
Qed.

Lemma filter_all {A} (p : A -> bool) : forall l, forallb p l = true -> filter p l = l.
Proof.
  induction l as [|x l IH]; cbn; intros H; [reflexivity|].
  apply andb_prop in H. destruct H as [H1 H2]. rewrite H1. f_equal. apply IH. exact H2.
Qed.

Lemma filter_none {A} (p : A -> bool) : forall l, filter p l = [] -> forallb (fun x => negb (p x)) l = true.
Proof.
  induction l as [|x l IH]; cbn; intros H; [reflexivity|].
  destruct (p x); [discriminate|]. cbn. apply IH. exact H.
Qed.

Lemma Forall2_impl' {A B} (R Q : A -> B -> Prop) : (forall x y, R x y -> Q x y) ->
  forall a b, Forall2 R a b -> Forall2 Q a b.
Proof. intros H a b F. induction F; constructor; [apply H; assumption|assumption]. Qed.

Lemma Forall2_flip' {A B} (R : A -> B -> Prop) a b : Forall2 R a b -> Forall2 (fun y x => R x y) b a.
Proof. induction 1; constructor; assumption. Qed.

Lemma Forall2_one {A B} (R : A -> B -> Prop) a b : R a b -> Forall2 R [a] [b].
Proof. repeat constructor. assumption. Qed.

Lemma Forall2_two {A B} (R : A -> B -> Prop) a1 a2 b1 b2 : R a1 b1 -> R a2 b2 -> Forall2 R [a1; a2] [b1; b2].
Proof. repeat constructor; assumption. Qed.

Lemma Forall2_repeat_l {A B} (R : A -> B -> Prop) a : forall bs,
  Forall (R a) bs -> Forall2 R (repeat a (length bs)) bs.
Proof. induction 1; cbn; constructor; assumption. Qed.

Lemma skipn_skipn_add {A} : forall a b (l : list A), skipn a (skipn b l) = skipn (b + a) l.
Proof.
  intros a b; revert a; induction b as [|b IH]; intros a l; [reflexivity|].
  destruct l; cbn; [destruct a; reflexivity|apply IH].
Qed.

Lemma nonempty_length {A} (l : list A) :
  match l with [] => false | _ :: _ => true end = true -> 0 < length l.
Proof. destruct l; [discriminate|intros _; apply Nat.lt_0_succ]. Qed.

Lemma Forall2_repeat {A B} (R : A -> B -> Prop) a b n : R a b -> Forall2 R (repeat a n) (repeat b n).
Proof. intros H. induction n; cbn; constructor; assumption. Qed.

Lemma forallb_repeat {A} (p : A -> bool) x n : p x = true -> forallb p (repeat x n) = true.
Proof. intros H. induction n as [|n IH]; [reflexivity|]. cbn. rewrite H. exact IH. Qed.

Lemma forallb_imp (P Q : N -> bool) l : (forall c, P c = true -> Q c = true) ->
  forallb P l = true -> forallb Q l = true.
Proof.
  intros HPQ. induction l as [|c l IH]; cbn [forallb]; intros H; [reflexivity|].
  apply andb_prop in H. destruct H as [Hc Hl]. rewrite (HPQ c Hc), (IH Hl). reflexivity.
Qed.

Lemma repeat_map {A B} (h : A -> B) a n : repeat (h a) n = map h (repeat a n).
Proof. induction n as [|n IH]; cbn; [reflexivity|]. f_equal. exact IH. Qed.

Lemma Forall_repeat {A} (P : A -> Prop) a n : P a -> Forall P (repeat a n).
Proof. intros H. induction n as [|n IH]; cbn; constructor; assumption. Qed.

Lemma Forall2_map {A B} (h : A -> B) l : Forall2 (fun x y => y = h x) l (map h l).
Proof. induction l as [|x l IH]; constructor; [reflexivity|exact IH]. Qed.

Lemma fold_left_inv {A B} (P : A -> Prop) (f : A -> B -> A) : (forall a b, P a -> P (f a b)) ->
  forall l a, P a -> P (fold_left f l a).
Proof. intros H. induction l as [|b l IH]; intros a Pa; [exact Pa|]. apply IH, H, Pa. Qed.

Lemma Forall_addN (P : N -> Prop) x l : P x -> Forall P l -> Forall P (addN x l).
Proof.
  intros Hx Hl. unfold addN. destruct (memN x l); [exact Hl|].
  apply Forall_app. split; [exact Hl|constructor; [exact Hx|constructor]].
Qed.
