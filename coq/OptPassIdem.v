(* OptPassIdem.v — the unroll pass is idempotent: the image of an expression contains none of the operators the pass
   rewrites, and on such an expression the pass is the identity (entries with `bi` set are untouched both times). *)
From Coq Require Import List.
Import ListNotations.
From PP Require Import Syntax SpecSyn SpecEquiv OptPass OptPassProof.
Open Scope nat_scope.

Lemma unroll_no_rep e : all_sub no_rep (unroll_bu e) = true.
Proof.
  apply (all_sub_map_bu (refp qtrue)); [intros R x y C; destruct C; reflexivity| |apply all_sub_true].
  intros x _. apply all_sub_unroll1. intros y H. exact H.
Qed.

Lemma unroll_fix : forall e, all_sub no_rep e = true -> unroll_bu e = e.
Proof. apply map_bu_id. exact unroll1_no_rep. Qed.

Theorem unroll_idempotent e : unroll_bu (unroll_bu e) = unroll_bu e.
Proof. apply unroll_fix, unroll_no_rep. Qed.

Theorem pass_unroll_idempotent bi g : pass_unroll bi (pass_unroll bi g) = pass_unroll bi g.
Proof.
  unfold pass_unroll, step_bu. rewrite map_map. apply map_ext. intros r.
  destruct (bi (r_name r)) eqn:B; [rewrite B; reflexivity|].
  cbn [set_body r_name r_body]. rewrite B. unfold set_body. cbn [r_name r_silent r_kind r_body].
  f_equal. exact (unroll_idempotent (r_body r)).
Qed.
