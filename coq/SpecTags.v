(* SpecTags.v — every tag attached to a pair of a successful parse is the tag of an
   `ERef _ (Some t)` or an `EGrp _ (Some t)` sub-expression of some rule body. *)
From Coq Require Import List ZArith.
Import ListNotations.
From PP Require Import Syntax Spec SpecSyn.

Definition otag (tag : option N) : list N := match tag with Some t => [t] | None => [] end.

Fixpoint expr_tags (e : expr) : list N :=
  match e with
  | ERef _ tag => otag tag
  | EGrp e1 tag => otag tag ++ expr_tags e1
  | ESeq es | EAlt es =>
      (fix go (l : list expr) : list N :=
         match l with [] => [] | x :: l' => expr_tags x ++ go l' end) es
  | EOpt e1 | EStar e1 | EPlus e1 | ERepN e1 _ | ERepMin e1 _ | ERepMax e1 _ | ERepMinMax e1 _ _
  | EAnd e1 | ENot e1 | EPush e1 => expr_tags e1
  | _ => []
  end.

Definition exprs_tags (es : list expr) : list N := flat_map expr_tags es.

Lemma expr_tags_seq es : expr_tags (ESeq es) = exprs_tags es.
Proof. reflexivity. Qed.
Lemma expr_tags_alt es : expr_tags (EAlt es) = exprs_tags es.
Proof. reflexivity. Qed.

Definition grammar_tags (g : grammar) : list N := flat_map (fun r => expr_tags (r_body r)) g.

Fixpoint pair_tags (p : pair) : list N :=
  match p with
  | Pair _ _ _ kids tag =>
      otag tag ++
      (fix go (ks : list pair) : list N :=
         match ks with [] => [] | k :: ks' => pair_tags k ++ go ks' end) kids
  end.

Definition tree_tags (ps : list pair) : list N := flat_map pair_tags ps.

Lemma pair_tags_eq n s e kids tag :
  pair_tags (Pair n s e kids tag) = otag tag ++ tree_tags kids.
Proof. reflexivity. Qed.

Lemma tree_tags_app a b : tree_tags (a ++ b) = tree_tags a ++ tree_tags b.
Proof. apply flat_map_app. Qed.

Lemma grammar_tags_lookup g n r t : lookup g n = Some r -> In t (expr_tags (r_body r)) ->
  In t (grammar_tags g).
Proof.
  intros L H. unfold grammar_tags. apply in_flat_map. exists r. split; [eapply lookup_In; exact L|exact H].
Qed.

Section Tags.
Variable g : grammar.
Variable T : N -> Prop.

Definition tin (l : list N) : Prop := forall t, In t l -> T t.

Lemma tin_nil : tin [].
Proof. intros t []. Qed.
Lemma tin_app a b : tin (a ++ b) <-> tin a /\ tin b.
Proof.
  split.
  - intros H. split; intros t Ht; apply H; apply in_or_app; [left|right]; exact Ht.
  - intros [A B] t Ht. apply in_app_or in Ht. destruct Ht; [apply A|apply B]; assumption.
Qed.
Lemma tin_app_intro a b : tin a -> tin b -> tin (a ++ b).
Proof. intros A B. apply tin_app. split; assumption. Qed.
Lemma tin_tl l : tin l -> tin (tl l).
Proof. destruct l; [intros H; exact H|]. intros H t Ht. apply H. right. exact Ht. Qed.
Lemma tin_cons x l : T x -> tin l -> tin (x :: l).
Proof. intros Hx Hl t [<-|Ht]; [exact Hx|apply Hl; exact Ht]. Qed.

Hypothesis HG : forall n r, lookup g n = Some r -> tin (expr_tags (r_body r)).

Definition task_tags (t : task) : list N :=
  match t with
  | TEval e => expr_tags e
  | TSeq es | TAlt es => exprs_tags es
  | TStar e => expr_tags e
  end.

Definition tres (r : res) : Prop :=
  match r with
  | Ok s' ps => tin (s_tags s') /\ tin (tree_tags ps)
  | _ => True
  end.

Definition tags_at (f : nat) : Prop :=
  forall c t s, tin (task_tags t) -> tin (s_tags s) -> tres (run g f c t s).

Lemma exprs_tags_repeat e n : tin (expr_tags e) -> tin (exprs_tags (repeat e n)).
Proof.
  intros H. induction n as [|n IH]; [apply tin_nil|]. cbn. apply tin_app_intro; assumption.
Qed.

Lemma exprs_tags_app a b : exprs_tags (a ++ b) = exprs_tags a ++ exprs_tags b.
Proof. apply flat_map_app. Qed.

Lemma task_tags_unroll e t : unroll e = Some t -> tin (expr_tags e) -> tin (task_tags t).
Proof.
  intros U H. destruct e; inversion U; subst t; clear U;
    cbn [task_tags expr_tags] in *; try exact H;
    rewrite ?exprs_tags_app; repeat apply tin_app_intro; try apply exprs_tags_repeat;
    try exact H; apply tin_nil.
Qed.

Lemma skip_expr_tags e : skip_expr g = Some e -> expr_tags e = [].
Proof.
  unfold skip_expr. destruct (has_ws g), (has_cm g); intros H; inversion H; reflexivity.
Qed.

Lemma ok0 s : tin (s_tags s) -> tres (Ok s []).
Proof. intros H. split; [exact H|apply tin_nil]. Qed.

Lemma skip_tags f : tags_at f -> forall c s, tin (s_tags s) ->
  tres (skip_with g (fun c' e' => run g f c' (TEval e')) c s).
Proof.
  intros IH c s Hs. apply skip_with_case; [exact (ok0 s Hs)|].
  intros e E. apply IH; [cbn [task_tags]; rewrite (skip_expr_tags e E); apply tin_nil|exact Hs].
Qed.

Lemma tin_push tag s : tin (otag tag) -> tin (s_tags s) -> tin (s_tags (push_tag tag s)).
Proof.
  destruct tag as [t|]; intros A B; [|exact B]. cbn. apply tin_cons; [apply A; left; reflexivity|exact B].
Qed.
Lemma tin_pop tag s : tin (s_tags s) -> tin (s_tags (pop_tag tag s)).
Proof. destruct tag; intros H; [cbn; apply tin_tl; exact H|exact H]. Qed.

Lemma tres_app s1 p1 s2 p2 : tres (Ok s1 p1) -> tres (Ok s2 p2) -> tres (Ok s2 (p1 ++ p2)).
Proof.
  intros [_ B1] [A2 B2]. split; [exact A2|]. rewrite tree_tags_app. apply tin_app_intro; assumption.
Qed.

(* the tag of the pair a rule produces was on the tag stack *)
Lemma finish_rule_tags c r p s1 kids : tres (Ok s1 kids) ->
  tres (Ok (fst (finish_rule c r p s1 kids)) (snd (finish_rule c r p s1 kids))).
Proof.
  intros [A B]. unfold finish_rule. destruct (r_silent r); [exact (conj A B)|].
  destruct (visible c r); (split; [cbn; apply tin_tl; exact A|]); [|exact B].
  cbn [snd tree_tags flat_map]. rewrite app_nil_r, pair_tags_eq. apply tin_app_intro; [|exact B].
  destruct (s_tags s1) as [|t0 l]; [apply tin_nil|].
  intros t [<-|[]]. apply A. left. reflexivity.
Qed.

Lemma tags_all : forall f, tags_at f.
Proof.
  induction f as [|f IH]; intros c t s Ht Hs; [exact I|].
  assert (IHk := skip_tags f IH).
  assert (OK0 := ok0 s Hs).
  destruct t as [e|es|es|e]; cbn [task_tags] in Ht.
  - destruct (unroll e) as [t|] eqn:U.
    { rewrite (run_unroll g e t U). apply IH; [exact (task_tags_unroll e t U Ht)|exact Hs]. }
    destruct (terminal e) eqn:L.
    { assert (R := run_terminal g e L f c s).
      destruct (run g (S f) c (TEval e) s) as [s' ps| | |]; try exact I.
      destruct R as [-> [m [(_ & _ & _ & E & _) _]]]. rewrite <- E in Hs. exact (ok0 s' Hs). }
    destruct e; try discriminate; cbn [run]; cbn [expr_tags] in Ht.
    + destruct (lookup g n) as [r|] eqn:EL; [|exact I].
      next_run IH IHk R; try exact I.
      specialize (R (HG n r EL) (tin_push tag s Ht Hs)). apply (finish_rule_tags c r (s_pos s)) in R.
      destruct (finish_rule _ _ _ _ _) as [s2 ps].
      split; [apply tin_pop|]; apply R.
    + (* EOpt *) next_run IH IHk R; try exact I; [exact (R Ht Hs)|exact OK0].
    + (* EStar *) next_run IH IHk R1; try exact I; [|exact OK0]. specialize (R1 Ht Hs).
      next_run IH IHk R2; try exact I. exact (tres_app _ _ _ _ R1 (R2 Ht (proj1 R1))).
    + (* EAnd *) next_run IH IHk R; try exact I. exact OK0.
    + (* ENot *) next_run IH IHk R; try exact I. exact OK0.
    + (* EGrp *) apply tin_app in Ht. destruct Ht as [Ht1 Ht2].
      next_run IH IHk R; try exact I. specialize (R Ht2 (tin_push tag s Ht1 Hs)).
      split; [apply tin_pop|]; apply R.
    + (* EPush *) next_run IH IHk R; try exact I. exact (R Ht Hs).
  - (* TSeq *) cbn [run]. destruct es as [|e1 es']; [exact OK0|].
    cbn [exprs_tags flat_map] in Ht. apply tin_app in Ht. destruct Ht as [Ht1 Ht2].
    next_run IH IHk R1; try exact I. specialize (R1 Ht1 Hs).
    destruct es' as [|e2 es'']; [exact R1|].
    next_run IH IHk R2; try exact I. specialize (R2 (proj1 R1)).
    next_run IH IHk R3; try exact I. specialize (R3 Ht2 (proj1 R2)).
    exact (tres_app _ _ _ _ R1 (tres_app _ _ _ _ R2 R3)).
  - (* TAlt *) cbn [run]. destruct es as [|e1 es']; [exact I|].
    cbn [exprs_tags flat_map] in Ht. apply tin_app in Ht. destruct Ht as [Ht1 Ht2].
    assert (R1 := IH c (TEval e1) s Ht1 Hs).
    destruct (run g f c (TEval e1) s) as [s1 p1|t| |]; try exact I; [exact R1|].
    apply (IH c (TAlt es') (set_trk s t) Ht2). exact Hs.
  - (* TStar *) cbn [run].
    next_run IH IHk R1; try exact I. specialize (R1 Hs).
    next_run IH IHk R2; try exact I; [|exact OK0]. specialize (R2 Ht (proj1 R1)).
    next_run IH IHk R3; try exact I. specialize (R3 Ht (proj1 R2)).
    exact (tres_app _ _ _ _ R1 (tres_app _ _ _ _ R2 R3)).
Qed.

End Tags.

Theorem run_tags : forall g f c t s,
  (forall x, In x (task_tags t) -> In x (grammar_tags g)) ->
  (forall x, In x (s_tags s) -> In x (grammar_tags g)) ->
  match run g f c t s with
  | Ok s' ps => (forall x, In x (s_tags s') -> In x (grammar_tags g)) /\
                (forall x, In x (tree_tags ps) -> In x (grammar_tags g))
  | _ => True
  end.
Proof.
  intros g f c t s Ht Hs.
  assert (H := tags_all g (fun x => In x (grammar_tags g))
                 (fun n r L x Hx => grammar_tags_lookup g n r x L Hx) f c t s Ht Hs).
  destruct (run g f c t s); try exact I. exact H.
Qed.

Lemma parse_tags_both g f rule input k s' tree : parse g f rule input k = Ok s' tree ->
  (forall t, In t (s_tags s') -> In t (grammar_tags g)) /\
  (forall t, In t (tree_tags tree) -> In t (grammar_tags g)).
Proof.
  intros H. assert (R := run_tags g f ctx0 (TEval (ERef rule None)) (st0 input k)).
  unfold parse, eval in H. rewrite H in R. apply R; intros x [].
Qed.

Theorem parse_tags : forall g f rule input k s' tree, parse g f rule input k = Ok s' tree ->
  forall t, In t (tree_tags tree) -> In t (grammar_tags g).
Proof. intros g f rule input k s' tree H. apply (parse_tags_both _ _ _ _ _ _ _ H). Qed.

Theorem parse_tags_stack : forall g f rule input k s' tree, parse g f rule input k = Ok s' tree ->
  forall t, In t (s_tags s') -> In t (grammar_tags g).
Proof. intros g f rule input k s' tree H. apply (parse_tags_both _ _ _ _ _ _ _ H). Qed.

(* non-vacuity: a tagged reference yields a tagged pair *)
Definition g_tag : grammar :=
  [{| r_name := 5; r_silent := false; r_kind := KNormal; r_body := ESeq [ERef 6 (Some 7%N); EGrp (ERef 6 None) (Some 8%N)] |};
   {| r_name := 6; r_silent := false; r_kind := KNormal; r_body := EStr [97%N] |}].
Example tags_instance :
  grammar_tags g_tag = [7; 8]%N /\
  match parse g_tag 20 5 [97; 97]%N 0 with
  | Ok _ tree => tree = [Pair 5 0 2 [Pair 6 0 1 [] (Some 7%N); Pair 6 1 2 [] (Some 8%N)] None]
                 /\ tree_tags tree = [7; 8]%N
  | _ => False
  end.
Proof. split; vm_compute; [reflexivity|split; reflexivity]. Qed.

Print Assumptions parse_tags.
Print Assumptions run_tags.
Print Assumptions parse_tags_stack.
