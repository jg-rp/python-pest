From Coq Require Import List NArith Bool Arith Lia.
Import ListNotations.
From PP Require Import Base Syntax Spec SpecLaws SpecEquiv Grammars.

(* Completeness of examples/json/json.pest (json_grammar) w.r.t. RFC 8259 documents whose top
   level is an array or an object (a superset: unescaped control characters are admitted in
   strings, as json.pest admits them).  What does not mention json_grammar holds of any grammar
   and is used by JsonTestComplete.v, JsonPrefix.v and CalcComplete.v: derived rules of the
   reference semantics (M, F, MS), failure by the first character (rejects), derivations that
   deliver a tree (Y), collections and documents of a JSON-shaped grammar (Coll, Doc). *)

Open Scope N_scope.

Lemma lenN_app {A} (a b : list A) : lenN (a ++ b) = lenN a + lenN b.
Proof. unfold lenN. rewrite app_length. lia. Qed.

Lemma lenN_nil {A} : lenN (@nil A) = 0.
Proof. reflexivity. Qed.

Lemma lenN_one {A} (a : A) : lenN [a] = 1.
Proof. reflexivity. Qed.

Definition slice (input : text) (s e : N) : text :=
  firstn (N.to_nat (e - s)) (skipn (N.to_nat s) input).

Lemma slice_mid (pre x post : text) :
  slice (pre ++ x ++ post) (lenN pre) (lenN (pre ++ x)) = x.
Proof.
  unfold slice. rewrite lenN_app.
  replace (N.to_nat (lenN pre + lenN x - lenN pre)) with (length x) by (unfold lenN; lia).
  replace (N.to_nat (lenN pre)) with (length pre) by (unfold lenN; lia).
  rewrite skipn_app, skipn_all, Nat.sub_diag. cbn [skipn app].
  rewrite firstn_app, firstn_all, Nat.sub_diag. cbn [firstn]. apply app_nil_r.
Qed.

Lemma slice_in input pre x post : input = pre ++ x ++ post ->
  slice input (lenN pre) (lenN (pre ++ x)) = x.
Proof. intros ->. apply slice_mid. Qed.

Lemma slice_empty input p : slice input p p = [].
Proof. unfold slice. rewrite N.sub_diag. reflexivity. Qed.

Inductive sk := SK (name : N) (slice : text) (kids : list sk).

Fixpoint skel (input : text) (p : pair) : sk :=
  match p with
  | Pair n s e kids _ => SK n (slice input s e) (map (skel input) kids)
  end.

Ltac assoc :=
  repeat first [rewrite <- app_assoc | rewrite app_nil_r | progress cbn [app]]; reflexivity.

(* all states met while parsing JSON have an empty stack and no pending tags *)
Definition mk (p : N) (r : text) (t : trk) : st :=
  {| s_pos := p; s_rest := r; s_stk := []; s_tags := []; s_trk := t |}.

Definition wrap (c : ctx) (rl : rule) (p p' : N) (kids : list pair) : list pair :=
  if r_silent rl then kids
  else if visible c rl then [Pair (r_name rl) p p' kids None] else kids.

Section Comb.
Variable g : grammar.

Definition OKt c tk p r p' r' ps :=
  forall t, exists t', runs g c tk (mk p r t) (Ok (mk p' r' t') ps).
Definition FLt c tk p r :=
  forall t, exists t', runs g c tk (mk p r t) (Fail t').
Definition SKo c p r p' r' :=
  forall t, exists t', skips g c (mk p r t) (Ok (mk p' r' t') []).

Lemma OKs_nil c p r : OKt c (TSeq []) p r p r [].
Proof. intros t. exists t. apply runs_seq_nil. reflexivity. Qed.

Lemma SKo_atomic c p r : c_atom c <> NonAtomic -> SKo c p r p r.
Proof.
  intros H t. exists t. exists 0%nat. split; [|discriminate]. apply atomic_no_trivia. exact H.
Qed.

Lemma SKo_expr c e p r p' r' : c_atom c = NonAtomic -> skip_expr g = Some e ->
  OKt (skip_ctx c) (TEval e) p r p' r' [] -> SKo c p r p' r'.
Proof.
  intros Hc He H t. destruct (H t) as [t' [f [E D]]]. exists t'. exists f. split; [|discriminate].
  unfold skip_with. rewrite Hc, He. exact E.
Qed.

End Comb.

(* The rules are phrased over a split  input = pre ++ x ++ post  (x is what is consumed);
   the furthest-failure record t is threaded through and never looked at.
   Names.  The first letter is the judgement: M (a task matches x and delivers the given pairs),
   F (it fails), MS (the implicit skip takes w); further down Y / YS are M / MS composed to the
   right, delivering a tree related to a list of values.  A small letter after it is the task
   when that is not TEval: s = TSeq, a = TAlt, T = TStar (the star after an iteration, which
   skips first).  A suffix _a is the same rule in an atomic context, where nothing is skipped.
   So Ms_cons_a: M of a TSeq with a head element, no skip; YT_stop: Y of a TStar that stops. *)

Section Located.
Variable g : grammar.

Definition M c tk (pre x post : text) ps :=
  OKt g c tk (lenN pre) (x ++ post) (lenN (pre ++ x)) post ps.
Definition MS c (pre w post : text) :=
  SKo g c (lenN pre) (w ++ post) (lenN (pre ++ w)) post.
Definition F c tk (pre r : text) := FLt g c tk (lenN pre) r.

Lemma M_cast c tk pre x post ps pre' x' post' ps' :
  M c tk pre x post ps -> pre = pre' -> x = x' -> post = post' -> ps = ps' ->
  M c tk pre' x' post' ps'.
Proof. intros H -> -> -> ->. exact H. Qed.

Lemma F_cast c tk pre r r' : F c tk pre r -> r = r' -> F c tk pre r'.
Proof. intros H ->. exact H. Qed.

Lemma M_ps c tk pre x post ps ps' : ps = ps' -> M c tk pre x post ps -> M c tk pre x post ps'.
Proof. intros ->. exact (fun H => H). Qed.

Ltac one_step := exists 1%nat; split; [|discriminate].

Lemma M_str c lit pre post : M c (TEval (EStr lit)) pre lit post [].
Proof.
  unfold M. rewrite lenN_app. intros t. exists t. one_step.
  cbn [run mk s_rest]. rewrite strip_prefix_app_iff. reflexivity.
Qed.

Lemma F_str c lit pre r : strip_prefix lit r = None -> F c (TEval (EStr lit)) pre r.
Proof. intros H t. eexists. one_step. cbn [run mk s_rest]. rewrite H. reflexivity. Qed.

Lemma M_cistr1 c a pre d post : N.eqb (ascii_lower a) (ascii_lower d) = true ->
  M c (TEval (ECIStr [a])) pre [d] post [].
Proof.
  intros H. unfold M. rewrite lenN_app. intros t. exists t. one_step.
  cbn [run mk s_rest strip_prefix_ci app]. rewrite H. reflexivity.
Qed.

Lemma F_cistr c lit pre r : strip_prefix_ci lit r = None -> F c (TEval (ECIStr lit)) pre r.
Proof. intros H t. eexists. one_step. cbn [run mk s_rest]. rewrite H. reflexivity. Qed.

Lemma M_range c lo hi pre d post : (N.leb lo d && N.leb d hi)%bool = true ->
  M c (TEval (ERange lo hi)) pre [d] post [].
Proof.
  intros H. unfold M. rewrite lenN_app. intros t. exists t. one_step.
  cbn [run mk s_rest app]. rewrite H. reflexivity.
Qed.

Lemma F_range c lo hi pre r :
  match r with [] => True | d :: _ => (N.leb lo d && N.leb d hi)%bool = false end ->
  F c (TEval (ERange lo hi)) pre r.
Proof.
  intros H t. eexists. one_step. cbn [run mk s_rest]. destruct r as [|d r]; [reflexivity|].
  rewrite H. reflexivity.
Qed.

Lemma M_any c pre d post : M c (TEval EAny) pre [d] post [].
Proof. unfold M. rewrite lenN_app. intros t. exists t. one_step. reflexivity. Qed.

Lemma M_soi c post : M c (TEval ESoi) [] [] post [].
Proof. intros t. exists t. one_step. reflexivity. Qed.

Lemma M_eoi c pre : M c (TEval EEoi) pre [] [] [].
Proof. unfold M. rewrite (app_nil_r pre). intros t. exists t. one_step. reflexivity. Qed.

Lemma M_via c tk tk' pre x post ps : (forall s r, runs g c tk s r -> runs g c tk' s r) ->
  M c tk pre x post ps -> M c tk' pre x post ps.
Proof. intros V H t. destruct (H t) as [t' E]. exists t'. apply V. exact E. Qed.

Lemma F_via c tk tk' pre r : (forall s r, runs g c tk s r -> runs g c tk' s r) ->
  F c tk pre r -> F c tk' pre r.
Proof. intros V H t. destruct (H t) as [t' E]. exists t'. apply V. exact E. Qed.

Lemma M_seq c es pre x post ps : M c (TSeq es) pre x post ps -> M c (TEval (ESeq es)) pre x post ps.
Proof. apply M_via. intros s r. apply seq_is_its_task. Qed.
Lemma F_seq c es pre r : F c (TSeq es) pre r -> F c (TEval (ESeq es)) pre r.
Proof. apply F_via. intros s res. apply seq_is_its_task. Qed.

Lemma M_alt c es pre x post ps : M c (TAlt es) pre x post ps -> M c (TEval (EAlt es)) pre x post ps.
Proof. apply M_via. intros s r. apply alt_is_its_task. Qed.
Lemma F_alt c es pre r : F c (TAlt es) pre r -> F c (TEval (EAlt es)) pre r.
Proof. apply F_via. intros s res. apply alt_is_its_task. Qed.

Lemma M_grp c e pre x post ps : M c (TEval e) pre x post ps -> M c (TEval (EGrp e None)) pre x post ps.
Proof. apply M_via. intros s r. apply evals_grp_none. Qed.
Lemma F_grp c e pre r : F c (TEval e) pre r -> F c (TEval (EGrp e None)) pre r.
Proof. apply F_via. intros s res. apply evals_grp_none. Qed.

Lemma M_plus c e pre x post ps :
  M c (TEval (ESeq [e; EStar e])) pre x post ps -> M c (TEval (EPlus e)) pre x post ps.
Proof. apply M_via. intros s r. apply plus_unrolled. Qed.
Lemma F_plus c e pre r : F c (TEval (ESeq [e; EStar e])) pre r -> F c (TEval (EPlus e)) pre r.
Proof. apply F_via. intros s res. apply plus_unrolled. Qed.

Lemma M_repn c e n pre x post ps :
  M c (TEval (ESeq (repeat e n))) pre x post ps -> M c (TEval (ERepN e n)) pre x post ps.
Proof. apply M_via. intros s r. apply repn_unrolled. Qed.
Lemma F_repn c e n pre r : F c (TEval (ESeq (repeat e n))) pre r -> F c (TEval (ERepN e n)) pre r.
Proof. apply F_via. intros s res. apply repn_unrolled. Qed.

Lemma Ms_one c e pre x post ps : M c (TEval e) pre x post ps -> M c (TSeq [e]) pre x post ps.
Proof. apply M_via. intros s r. apply runs_seq_one. Qed.

Lemma M_opt_some c e pre x post ps : M c (TEval e) pre x post ps -> M c (TEval (EOpt e)) pre x post ps.
Proof. intros H t. destruct (H t) as [t' E]. exists t'. apply opt_of_success. exact E. Qed.

Lemma M_opt_none c e pre post : F c (TEval e) pre post -> M c (TEval (EOpt e)) pre [] post [].
Proof.
  intros H. unfold M. rewrite app_nil_r. intros t. destruct (H t) as [t' E]. exists t'.
  exact (opt_of_failure g c e _ t' E).
Qed.

Lemma M_not c e pre post : F (neg_ctx c) (TEval e) pre post -> M c (TEval (ENot e)) pre [] post [].
Proof.
  intros H. unfold M. rewrite app_nil_r. intros t. destruct (H t) as [t' E]. exists t'.
  exact (proj2 (not_inverts g c e _) t' E).
Qed.

Lemma F_not c e pre x post ps : M (neg_ctx c) (TEval e) pre x post ps -> F c (TEval (ENot e)) pre (x ++ post).
Proof. intros H t. destruct (H t) as [t' E]. exact (proj1 (not_inverts g c e _) _ _ E). Qed.

Lemma M_ref c n rl pre x post kids : lookup g n = Some rl ->
  M (rule_ctx c rl) (TEval (r_body rl)) pre x post kids ->
  M c (TEval (ERef n None)) pre x post (wrap c rl (lenN pre) (lenN (pre ++ x)) kids).
Proof.
  intros L H t. destruct (H t) as [t' [f [E D]]]. exists t'. exists (S f). split; [|discriminate].
  cbn [run]. rewrite L. cbn [push_tag]. rewrite E. unfold finish_rule, wrap.
  destruct (r_silent rl); [reflexivity|]. destruct (visible c rl); reflexivity.
Qed.

Lemma F_ref c n rl pre r : lookup g n = Some rl ->
  F (rule_ctx c rl) (TEval (r_body rl)) pre r -> F c (TEval (ERef n None)) pre r.
Proof.
  intros L H t. destruct (H t) as [t' [f [E D]]]. exists t'. exists (S f). split; [|discriminate].
  cbn [run]. rewrite L. cbn [push_tag]. rewrite E. reflexivity.
Qed.

Lemma Ma_first c e1 es pre x post ps : M c (TEval e1) pre x post ps -> M c (TAlt (e1 :: es)) pre x post ps.
Proof.
  intros H t. destruct (H t) as [t' E]. exists t'. apply runs_alt_cons.
  eexists. split; [exact E|]. reflexivity.
Qed.

Lemma Ma_next c e1 es pre x post ps :
  F c (TEval e1) pre (x ++ post) -> M c (TAlt es) pre x post ps -> M c (TAlt (e1 :: es)) pre x post ps.
Proof.
  intros H1 H2 t. destruct (H1 t) as [t1 E1]. destruct (H2 t1) as [t2 E2]. exists t2.
  apply runs_alt_cons. eexists. split; [exact E1|]. exact E2.
Qed.

Lemma Fa_nil c pre r : F c (TAlt []) pre r.
Proof. intros t. eexists. apply runs_alt_nil. reflexivity. Qed.

Lemma Fa_cons c e1 es pre r : F c (TEval e1) pre r -> F c (TAlt es) pre r -> F c (TAlt (e1 :: es)) pre r.
Proof.
  intros H1 H2 t. destruct (H1 t) as [t1 E1]. destruct (H2 t1) as [t2 E2]. exists t2.
  apply runs_alt_cons. eexists. split; [exact E1|]. exact E2.
Qed.

(* trivia w is skipped between two elements of a sequence *)
Lemma Ms_cons c e1 e2 es pre x1 w x2 post ps1 ps3 :
  M c (TEval e1) pre x1 (w ++ x2 ++ post) ps1 ->
  MS c (pre ++ x1) w (x2 ++ post) ->
  M c (TSeq (e2 :: es)) (pre ++ x1 ++ w) x2 post ps3 ->
  M c (TSeq (e1 :: e2 :: es)) pre (x1 ++ w ++ x2) post (ps1 ++ ps3).
Proof.
  unfold M, MS. intros H1 H2 H3. rewrite <- !app_assoc in *. intros t.
  destruct (H1 t) as [t1 E1]. destruct (H2 t1) as [t2 E2]. destruct (H3 t2) as [t3 E3].
  exists t3. apply runs_seq_cons.
  eexists. split; [exact E1|]. eexists. split; [exact E2|]. eexists. split; [exact E3|]. reflexivity.
Qed.

Lemma Fs_first c e1 es pre r : F c (TEval e1) pre r -> F c (TSeq (e1 :: es)) pre r.
Proof.
  intros H t. destruct (H t) as [t' E]. exists t'. destruct es.
  - apply runs_seq_one. exact E.
  - apply runs_seq_cons. eexists. split; [exact E|]. reflexivity.
Qed.

Lemma Fs_later c e1 e2 es pre x1 w r ps1 :
  M c (TEval e1) pre x1 (w ++ r) ps1 -> MS c (pre ++ x1) w r ->
  F c (TSeq (e2 :: es)) (pre ++ x1 ++ w) r -> F c (TSeq (e1 :: e2 :: es)) pre (x1 ++ w ++ r).
Proof.
  unfold M, MS, F. intros H1 H2 H3. rewrite <- !app_assoc in *. intros t.
  destruct (H1 t) as [t1 E1]. destruct (H2 t1) as [t2 E2]. destruct (H3 t2) as [t3 E3].
  exists t3. apply runs_seq_cons.
  eexists. split; [exact E1|]. eexists. split; [exact E2|]. eexists. split; [exact E3|]. reflexivity.
Qed.

(* trivia is skipped before every iteration but the first *)
Lemma M_star_stop c e pre post : F c (TEval e) pre post -> M c (TEval (EStar e)) pre [] post [].
Proof.
  intros H. unfold M. rewrite app_nil_r. intros t. destruct (H t) as [t' E]. exists t'.
  apply evals_star. eexists. split; [exact E|]. reflexivity.
Qed.

Lemma M_star_go c e pre x1 x2 post ps1 ps2 :
  M c (TEval e) pre x1 (x2 ++ post) ps1 -> M c (TStar e) (pre ++ x1) x2 post ps2 ->
  M c (TEval (EStar e)) pre (x1 ++ x2) post (ps1 ++ ps2).
Proof.
  unfold M. intros H1 H2. rewrite <- !app_assoc in *. intros t.
  destruct (H1 t) as [t1 E1]. destruct (H2 t1) as [t2 E2]. exists t2.
  apply evals_star. eexists. split; [exact E1|]. eexists. split; [exact E2|]. reflexivity.
Qed.

Lemma MT_stop c e pre w post : MS c pre w post -> F c (TEval e) (pre ++ w) post ->
  M c (TStar e) pre [] (w ++ post) [].
Proof.
  unfold M, MS, F. intros H1 H2. rewrite app_nil_r. cbn [app]. intros t.
  destruct (H1 t) as [t1 E1]. destruct (H2 t1) as [t2 E2]. exists t2.
  apply runs_star. eexists. split; [exact E1|]. eexists. split; [exact E2|]. reflexivity.
Qed.

Lemma MT_go c e pre w x1 x2 post ps1 ps2 :
  MS c pre w (x1 ++ x2 ++ post) -> M c (TEval e) (pre ++ w) x1 (x2 ++ post) ps1 ->
  M c (TStar e) (pre ++ w ++ x1) x2 post ps2 ->
  M c (TStar e) pre (w ++ x1 ++ x2) post (ps1 ++ ps2).
Proof.
  unfold M, MS. intros H1 H2 H3. rewrite <- !app_assoc in *. intros t.
  destruct (H1 t) as [t1 E1]. destruct (H2 t1) as [t2 E2]. destruct (H3 t2) as [t3 E3].
  exists t3. apply runs_star.
  eexists. split; [exact E1|]. eexists. split; [exact E2|]. eexists. split; [exact E3|]. reflexivity.
Qed.

Lemma MS_atomic c pre post : c_atom c <> NonAtomic -> MS c pre [] post.
Proof. intros H. unfold MS. rewrite app_nil_r. apply SKo_atomic. exact H. Qed.

Lemma Ms_cons_a c e1 e2 es pre x1 x2 post ps1 ps3 :
  c_atom c <> NonAtomic ->
  M c (TEval e1) pre x1 (x2 ++ post) ps1 ->
  M c (TSeq (e2 :: es)) (pre ++ x1) x2 post ps3 ->
  M c (TSeq (e1 :: e2 :: es)) pre (x1 ++ x2) post (ps1 ++ ps3).
Proof.
  intros Hc H1 H3. apply (Ms_cons c e1 e2 es pre x1 [] x2 post); [exact H1|apply MS_atomic; exact Hc|].
  rewrite app_nil_r. exact H3.
Qed.

Lemma Fs_later_a c e1 e2 es pre x1 r ps1 : c_atom c <> NonAtomic ->
  M c (TEval e1) pre x1 r ps1 ->
  F c (TSeq (e2 :: es)) (pre ++ x1) r -> F c (TSeq (e1 :: e2 :: es)) pre (x1 ++ r).
Proof.
  intros Hc H1 H3. apply (Fs_later c e1 e2 es pre x1 [] r ps1); [exact H1|apply MS_atomic; exact Hc|].
  rewrite app_nil_r. exact H3.
Qed.

Lemma MT_stop_a c e pre post : c_atom c <> NonAtomic -> F c (TEval e) pre post ->
  M c (TStar e) pre [] post [].
Proof.
  intros Hc H. apply (MT_stop c e pre [] post); [apply MS_atomic; exact Hc|].
  rewrite app_nil_r. exact H.
Qed.

Lemma MT_go_a c e pre x1 x2 post ps1 ps2 : c_atom c <> NonAtomic ->
  M c (TEval e) pre x1 (x2 ++ post) ps1 -> M c (TStar e) (pre ++ x1) x2 post ps2 ->
  M c (TStar e) pre (x1 ++ x2) post (ps1 ++ ps2).
Proof.
  intros Hc H1 H2. apply (MT_go c e pre [] x1 x2 post); [apply MS_atomic; exact Hc| |].
  - rewrite app_nil_r. exact H1.
  - exact H2.
Qed.

End Located.

Arguments Ms_cons g {c e1 e2 es pre} x1 w x2 {post} ps1 ps3.
Arguments Ms_cons_a g {c e1 e2 es pre} x1 x2 {post} ps1 ps3.
Arguments Fs_later g {c e1 e2 es pre} x1 w r ps1.
Arguments Fs_later_a g {c e1 e2 es pre} x1 {r} ps1.
Arguments M_star_go g {c e pre} x1 x2 {post} ps1 ps2.
Arguments MT_go g {c e pre} w x1 x2 {post} ps1 ps2.
Arguments MT_go_a g {c e pre} x1 x2 {post} ps1 ps2.

(* e* and e+ where e takes a text piece by piece and delivers no pair: P holds of what is still
   to be consumed, Q of what follows it *)
Definition piece g c e (P Q : text -> Prop) (d : N) (w : text) : Prop :=
  exists x1 x2, d :: w = x1 ++ x2 /\ (length x2 <= length w)%nat /\ P x2 /\
    forall pre post, Q post -> M g c (TEval e) pre x1 (x2 ++ post) [].

Lemma piece_char g c e (P Q : text -> Prop) d w : P w ->
  (forall pre post, Q post -> M g c (TEval e) pre [d] (w ++ post) []) -> piece g c e P Q d w.
Proof. intros Hw HM. exists [d], w. split; [reflexivity|]. split; [apply le_n|]. split; [exact Hw|exact HM]. Qed.

Section Pieces.
Variable g : grammar.
Variables (c : ctx) (e : expr) (P Q : text -> Prop).
Hypothesis Hc : c_atom c <> NonAtomic.
Hypothesis Hstep : forall d w, P (d :: w) -> piece g c e P Q d w.
Hypothesis Hstop : forall pre post, Q post -> F g c (TEval e) pre post.

Lemma MT_pieces : forall n w pre post, (length w <= n)%nat -> P w -> Q post ->
  M g c (TStar e) pre w post [].
Proof.
  induction n as [|n IH]; intros w pre post Hl Hw Hq;
    (destruct w as [|d w]; [apply MT_stop_a; [exact Hc|apply Hstop; exact Hq]|]); cbn [length] in Hl; [lia|].
  destruct (Hstep d w Hw) as (x1 & x2 & -> & Hl2 & H2 & HM).
  apply (MT_go_a g x1 x2 [] []); [exact Hc|apply HM; exact Hq|].
  apply IH; [lia|exact H2|exact Hq].
Qed.

Lemma M_star_pieces w pre post : P w -> Q post -> M g c (TEval (EStar e)) pre w post [].
Proof.
  intros Hw Hq. destruct w as [|d w]; [apply M_star_stop; apply Hstop; exact Hq|].
  destruct (Hstep d w Hw) as (x1 & x2 & -> & _ & H2 & HM).
  apply (M_star_go g x1 x2 [] []); [apply HM; exact Hq|].
  apply (MT_pieces (length x2)); [lia|exact H2|exact Hq].
Qed.

Lemma M_plus_pieces d w pre post : P (d :: w) -> Q post -> M g c (TEval (EPlus e)) pre (d :: w) post [].
Proof.
  intros Hw Hq. destruct (Hstep d w Hw) as (x1 & x2 & -> & _ & H2 & HM).
  apply M_plus. apply M_seq.
  apply (Ms_cons_a g x1 x2 [] []); [exact Hc|apply HM; exact Hq|].
  apply Ms_one. apply M_star_pieces; assumption.
Qed.

End Pieces.

Section Class.
Variable g : grammar.
Variables (c : ctx) (e : expr) (cl : N -> bool) (Q : text -> Prop).
Hypothesis Hc : c_atom c <> NonAtomic.
Hypothesis Hone : forall pre d post, cl d = true -> M g c (TEval e) pre [d] post [].
Hypothesis Hstop : forall pre post, Q post -> F g c (TEval e) pre post.

Lemma class_step d w : forallb cl (d :: w) = true ->
  piece g c e (fun x => forallb cl x = true) Q d w.
Proof.
  intros H. cbn [forallb] in H. apply andb_prop in H. destruct H as [Hd Hw].
  apply piece_char; [exact Hw|]. intros pre post _. apply Hone. exact Hd.
Qed.

Lemma M_star_class ds pre post : forallb cl ds = true -> Q post ->
  M g c (TEval (EStar e)) pre ds post [].
Proof. exact (M_star_pieces g c e _ Q Hc class_step Hstop ds pre post). Qed.

Lemma M_plus_class d ds pre post : forallb cl (d :: ds) = true -> Q post ->
  M g c (TEval (EPlus e)) pre (d :: ds) post [].
Proof. exact (M_plus_pieces g c e _ Q Hc class_step Hstop d ds pre post). Qed.

End Class.

Definition is_ws (c : N) : bool := (c =? 32) || (c =? 9) || (c =? 13) || (c =? 10).
Definition is_digit (c : N) : bool := (48 <=? c) && (c <=? 57).
Definition is_nzdigit (c : N) : bool := (49 <=? c) && (c <=? 57).
Definition is_hex (c : N) : bool :=
  is_digit c || ((97 <=? c) && (c <=? 102)) || ((65 <=? c) && (c <=? 70)).

(* insignificant whitespace: any sequence over space, tab, CR, LF *)
Definition ws (w : text) : Prop := forallb is_ws w = true.

Inductive jchar :=
| JPlain (c : N)                 (* any code point except the quote (34) and the backslash (92) *)
| JEsc (c : N)                   (* backslash + one of 34 92 47 98 102 110 114 116 (quote \ / b f n r t) *)
| JUni (h1 h2 h3 h4 : N).        (* backslash u + four hex digits 0-9 a-f A-F *)

Record jnum := {
  neg : bool;
  int_part : list N;                           (* 0, or a nonzero digit followed by digits *)
  frac : option (list N);                      (* non-empty digits *)
  expo : option (N * option N * list N)        (* e/E, optional sign +/-, non-empty digits *)
}.

Inductive jv :=
| JNull
| JBool (b : bool)
| JNum (n : jnum)
| JStr (s : list jchar)
| JArr (vs : list jv)
| JObj (ms : list (list jchar * jv)).

Definition wf_jchar (j : jchar) : bool :=
  match j with
  | JPlain c => negb (c =? 34) && negb (c =? 92)
  | JEsc c => memN c [34; 92; 47; 98; 102; 110; 114; 116]
  | JUni h1 h2 h3 h4 => is_hex h1 && is_hex h2 && is_hex h3 && is_hex h4
  end.

Definition nonempty {A} (l : list A) : bool := match l with [] => false | _ => true end.

Definition wf_int (l : list N) : bool :=
  match l with
  | [] => false
  | d :: ds => if d =? 48 then negb (nonempty ds) else is_nzdigit d && forallb is_digit ds
  end.

Definition wf_digits (ds : list N) : bool := nonempty ds && forallb is_digit ds.

Definition wf_jnum (n : jnum) : bool :=
  wf_int (int_part n) &&
  match frac n with Some ds => wf_digits ds | None => true end &&
  match expo n with
  | Some (e, sg, ds) =>
      ((e =? 101) || (e =? 69)) &&
      match sg with Some s => (s =? 43) || (s =? 45) | None => true end &&
      wf_digits ds
  | None => true
  end.

Fixpoint wf_jv (v : jv) : bool :=
  match v with
  | JNull | JBool _ => true
  | JNum n => wf_jnum n
  | JStr s => forallb wf_jchar s
  | JArr vs => forallb wf_jv vs
  | JObj ms => forallb (fun m => forallb wf_jchar (fst m) && wf_jv (snd m)) ms
  end.

(* token texts: no freedom here *)
Definition jchar_text (j : jchar) : text :=
  match j with
  | JPlain c => [c]
  | JEsc c => [92; c]
  | JUni h1 h2 h3 h4 => [92; 117; h1; h2; h3; h4]
  end.

Fixpoint chars_text (s : list jchar) : text :=
  match s with [] => [] | j :: s' => jchar_text j ++ chars_text s' end.

Definition str_text (s : list jchar) : text := 34 :: chars_text s ++ [34].

Definition sign_text (n : jnum) : text := if neg n then [45] else [].
Definition frac_text (n : jnum) : text := match frac n with Some ds => 46 :: ds | None => [] end.
Definition expo_text (n : jnum) : text :=
  match expo n with
  | Some (e, sg, ds) => e :: match sg with Some s => [s] | None => [] end ++ ds
  | None => []
  end.
Definition num_text (n : jnum) : text := sign_text n ++ int_part n ++ frac_text n ++ expo_text n.

Definition null_text : text := [110; 117; 108; 108].
Definition bool_text (b : bool) : text := if b then [116; 114; 117; 101] else [102; 97; 108; 115; 101].

(* renderings: whitespace is free around the six structural characters
     array  = [ ws ]  |  [ ws value (ws , ws value)* ws ]
     object = { ws }  |  { ws member (ws , ws member)* ws }
     member = string ws : ws value
     doc    = ws value ws                                                                *)
Definition member_text (k : list jchar) (wa wb x : text) : text := str_text k ++ wa ++ [58] ++ wb ++ x.

Inductive renders : jv -> text -> Prop :=
| R_null : renders JNull null_text
| R_bool b : renders (JBool b) (bool_text b)
| R_num n : renders (JNum n) (num_text n)
| R_str s : renders (JStr s) (str_text s)
| R_arr0 w : ws w -> renders (JArr []) (91 :: w ++ [93])
| R_arr v vs w1 x tl wl :
    ws w1 -> renders v x -> renders_tail vs tl -> ws wl ->
    renders (JArr (v :: vs)) (91 :: w1 ++ x ++ tl ++ wl ++ [93])
| R_obj0 w : ws w -> renders (JObj []) (123 :: w ++ [125])
| R_obj k v ms w1 wa wb x tl wl :
    ws w1 -> ws wa -> ws wb -> renders v x -> renders_mtail ms tl -> ws wl ->
    renders (JObj ((k, v) :: ms)) (123 :: w1 ++ member_text k wa wb x ++ tl ++ wl ++ [125])
(* (ws , ws value)* *)
with renders_tail : list jv -> text -> Prop :=
| RT_nil : renders_tail [] []
| RT_cons v vs w2 w1 x tl :
    ws w2 -> ws w1 -> renders v x -> renders_tail vs tl ->
    renders_tail (v :: vs) (w2 ++ [44] ++ w1 ++ x ++ tl)
(* (ws , ws member)* *)
with renders_mtail : list (list jchar * jv) -> text -> Prop :=
| RM_nil : renders_mtail [] []
| RM_cons k v ms w2 w1 wa wb x tl :
    ws w2 -> ws w1 -> ws wa -> ws wb -> renders v x -> renders_mtail ms tl ->
    renders_mtail ((k, v) :: ms) (w2 ++ [44] ++ w1 ++ member_text k wa wb x ++ tl).

Scheme renders_mut := Induction for renders Sort Prop
  with renders_tail_mut := Induction for renders_tail Sort Prop
  with renders_mtail_mut := Induction for renders_mtail Sort Prop.
Combined Scheme renders_all from renders_mut, renders_tail_mut, renders_mtail_mut.

Inductive renders_doc : jv -> text -> Prop :=
| R_doc v w1 x w2 : ws w1 -> renders v x -> ws w2 -> renders_doc v (w1 ++ x ++ w2).

Definition top_level (v : jv) : Prop :=
  match v with JArr _ | JObj _ => True | _ => False end.

(* string (15) containing inner (14); inner is atomic and has no children *)
Definition str_sk (s : list jchar) : sk := SK 15 (str_text s) [SK 14 (chars_text s) []].

(* `msk v k`: k is the tree of v.  Same nesting and member order; every node's slice is a
   rendering of the corresponding value, and number / string / literal tokens are exactly
   their source text. value (18) and json (4) are silent and contribute no node. *)
Inductive msk : jv -> sk -> Prop :=
| K_null : msk JNull (SK 16 null_text [])
| K_bool b : msk (JBool b) (SK 17 (bool_text b) [])
| K_num n : msk (JNum n) (SK 8 (num_text n) [])
| K_str s : msk (JStr s) (str_sk s)
| K_arr vs sl kids :
    renders (JArr vs) sl -> Forall2 msk vs kids -> msk (JArr vs) (SK 7 sl kids)
| K_obj ms sl kids :
    renders (JObj ms) sl -> Forall2 mmsk ms kids -> msk (JObj ms) (SK 6 sl kids)
(* pair (19) = string, value *)
with mmsk : list jchar * jv -> sk -> Prop :=
| K_member k v wa wb x kv :
    ws wa -> ws wb -> renders v x -> msk v kv ->
    mmsk (k, v) (SK 19 (member_text k wa wb x) [str_sk k; kv]).

(* the tree of v, then EOI (3) *)
Definition mirrors (input : text) (v : jv) (tree : list pair) : Prop :=
  exists top, map (skel input) tree = [top; SK 3 [] []] /\ msk v top.

(* shared by json.pest and tests/grammars/json.pest *)
Definition e_sign := EOpt (EGrp (EAlt [EStr [43]; EStr [45]]) None).
Definition e_notq := ENot (EGrp (EAlt [EStr [34]; EStr [92]]) None).
Definition hex_body := EAlt [ERange 48 57; ERange 97 102; ERange 65 70].
Definition string_body := ESeq [EStr [34]; ERef 14 None; EStr [34]].
Definition boolean_body := EAlt [EStr [116; 114; 117; 101]; EStr [102; 97; 108; 115; 101]].
Definition e_more (n : N) := EGrp (ESeq [EStr [44]; ERef n None]) None.
Definition ws_body := EAlt [EStr [32]; EStr [9]; EStr [13]; EStr [10]].
Definition mkrule n s k b := {| r_name := n; r_silent := s; r_kind := k; r_body := b |}.

(* conditions on the first character of what follows a token *)
Definition hdP (P : N -> bool) (r : text) : bool := match r with [] => true | d :: _ => P d end.
Definition nf0 (d : N) : bool := negb (is_digit d).
Definition nf1 (d : N) : bool := negb (is_digit d) && negb (d =? 46).
Definition nf2 (d : N) : bool :=
  negb (is_digit d) && negb (d =? 46) && negb (d =? 101) && negb (d =? 69).
Definition nows (d : N) : bool := negb (is_ws d).

Lemma sp1 a r : match r with [] => True | d :: _ => (d =? a) = false end ->
  strip_prefix [a] r = None.
Proof.
  destruct r as [|d r]; [reflexivity|]. intros H. cbn [strip_prefix]. rewrite N.eqb_sym, H. reflexivity.
Qed.

Lemma strip_hd (P : N -> bool) ch lit r : P ch = false -> hdP P r = true ->
  strip_prefix (ch :: lit) r = None.
Proof.
  intros Hch H. destruct r as [|d r]; [reflexivity|]. cbn [strip_prefix hdP] in *.
  destruct (N.eqb_spec ch d) as [->|_]; [congruence|reflexivity].
Qed.

Lemma hdP_imp (P Q : N -> bool) r : (forall d, P d = true -> Q d = true) -> hdP P r = true -> hdP Q r = true.
Proof. intros H. destruct r as [|d r]; [reflexivity|]. apply H. Qed.

Lemma ws_cons d w : ws (d :: w) -> is_ws d = true /\ ws w.
Proof. unfold ws. cbn [forallb]. intros H. apply andb_prop in H. exact H. Qed.

Lemma ws_app a b : ws a -> ws b -> ws (a ++ b).
Proof. unfold ws. intros A B. rewrite forallb_app, A, B. reflexivity. Qed.

Lemma ws_app_inv a b : ws (a ++ b) -> ws a /\ ws b.
Proof. unfold ws. rewrite forallb_app. intros H. apply andb_prop in H. exact H. Qed.

Lemma rule_ctx_atom_normal c n s b : negb (is_trivia_name n) = true ->
  c_atom (rule_ctx c (mkrule n s KNormal b)) = c_atom c.
Proof.
  intros H. apply negb_true_iff in H. unfold rule_ctx, body_atom, mkrule. cbn [c_atom r_kind r_name].
  rewrite H. reflexivity.
Qed.

Definition rctx (c : ctx) (n : N) (s : bool) (b : expr) : ctx := rule_ctx c (mkrule n s KNormal b).

Lemma rctx_na c n s b : negb (is_trivia_name n) = true -> c_atom c = NonAtomic ->
  c_atom (rctx c n s b) = NonAtomic.
Proof. intros Hn Hc. unfold rctx. rewrite rule_ctx_atom_normal; assumption. Qed.

Lemma atomic_not_na c : c_atom c = Atomic -> c_atom c <> NonAtomic.
Proof. intros ->. discriminate. Qed.

Lemma na_not_atomic c : c_atom c = NonAtomic -> c_atom c <> Atomic.
Proof. intros ->. discriminate. Qed.

Section Rejects.
Variable g : grammar.

Definition rejects (e : expr) (P : N -> bool) : Prop :=
  forall c pre r, hdP P r = true -> F g c (TEval e) pre r.

Lemma rej_str P a lit : P a = false -> rejects (EStr (a :: lit)) P.
Proof. intros H c pre r Hr. apply F_str. exact (strip_hd P a lit r H Hr). Qed.

Lemma rej_range P lo hi : (forall d, P d = true -> (N.leb lo d && N.leb d hi)%bool = false) ->
  rejects (ERange lo hi) P.
Proof. intros H c pre r Hr. apply F_range. destruct r as [|d r]; [exact I|]. exact (H d Hr). Qed.

Lemma rej_seq P e es : rejects e P -> rejects (ESeq (e :: es)) P.
Proof. intros H c pre r Hr. apply F_seq. apply Fs_first. exact (H c pre r Hr). Qed.

Lemma rej_alt P es : Forall (fun e => rejects e P) es -> rejects (EAlt es) P.
Proof.
  intros H c pre r Hr. apply F_alt. induction H as [|e es He _ IH]; [apply Fa_nil|].
  apply Fa_cons; [exact (He c pre r Hr)|exact IH].
Qed.

Lemma rej_grp P e : rejects e P -> rejects (EGrp e None) P.
Proof. intros H c pre r Hr. apply F_grp. exact (H c pre r Hr). Qed.

Lemma rej_ref P n rl : lookup g n = Some rl -> rejects (r_body rl) P -> rejects (ERef n None) P.
Proof. intros L H c pre r Hr. eapply F_ref; [exact L|]. exact (H _ pre r Hr). Qed.

End Rejects.

Section Lexical.
Variable g : grammar.

Lemma M_sref c n k b pre x post kids : lookup g n = Some (mkrule n true k b) ->
  M g (rule_ctx c (mkrule n true k b)) (TEval b) pre x post kids ->
  M g c (TEval (ERef n None)) pre x post kids.
Proof. intros L H. exact (M_ref g c n _ pre x post kids L H). Qed.

(* a normal or atomic rule called in an atomic context yields no pair of its own *)
Lemma M_aref c n k b pre x post kids : lookup g n = Some (mkrule n false k b) ->
  match k with KNormal | KAtomic => True | _ => False end -> c_atom c = Atomic ->
  M g (rule_ctx c (mkrule n false k b)) (TEval b) pre x post kids ->
  M g c (TEval (ERef n None)) pre x post kids.
Proof.
  intros L Hk Hc H. eapply M_ps; [|exact (M_ref g c n _ pre x post kids L H)].
  unfold wrap, visible, mkrule. cbn [r_silent r_kind negb andb]. rewrite Hc.
  destruct k; (reflexivity || contradiction).
Qed.

(* called where pairs are visible, a rule of any kind yields one pair unless it is silent *)
Lemma M_vref c n s k b pre x post kids : lookup g n = Some (mkrule n s k b) ->
  c_atom c <> Atomic ->
  M g (rule_ctx c (mkrule n s k b)) (TEval b) pre x post kids ->
  M g c (TEval (ERef n None)) pre x post
    (if s then kids else [Pair n (lenN pre) (lenN (pre ++ x)) kids None]).
Proof.
  intros L Hc H. eapply M_ps; [|exact (M_ref g c n _ pre x post kids L H)].
  unfold wrap, visible, mkrule. cbn [r_silent r_kind r_name].
  destruct s; [reflexivity|]. destruct k; destruct (c_atom c); (reflexivity || contradiction).
Qed.

Definition lits (l : list N) : list expr := map (fun a => EStr [a]) l.

Lemma Ma_lits c l es pre d post : memN d l = true -> M g c (TAlt (lits l ++ es)) pre [d] post [].
Proof.
  induction l as [|a l IH]; [discriminate|]. cbn [memN lits map app].
  destruct (N.eqb_spec d a) as [->|Hd]; intros H.
  - apply Ma_first. apply M_str.
  - apply Ma_next; [|apply IH; exact H]. apply F_str. apply sp1. apply N.eqb_neq. exact Hd.
Qed.

Lemma Fa_lits c l es pre r : match r with [] => True | d :: _ => memN d l = false end ->
  F g c (TAlt es) pre r -> F g c (TAlt (lits l ++ es)) pre r.
Proof.
  intros H Hes. induction l as [|a l IH]; [exact Hes|]. cbn [lits map app]. apply Fa_cons.
  - apply F_str. apply sp1. destruct r as [|d r]; [exact I|].
    cbn [memN] in H. apply orb_false_iff in H. apply H.
  - apply IH. destruct r as [|d r]; [exact I|]. cbn [memN] in H. apply orb_false_iff in H. apply H.
Qed.

Lemma is_ws_cases d : is_ws d = true -> d = 32 \/ d = 9 \/ d = 13 \/ d = 10.
Proof.
  unfold is_ws. intros H.
  destruct (N.eqb_spec d 32); [tauto|]. destruct (N.eqb_spec d 9); [tauto|].
  destruct (N.eqb_spec d 13); [tauto|]. destruct (N.eqb_spec d 10); [tauto|]. discriminate.
Qed.

Lemma is_ws_mem d : memN d [32; 9; 13; 10] = is_ws d.
Proof. unfold is_ws. cbn [memN]. rewrite orb_false_r, !orb_assoc. reflexivity. Qed.

Section WS.
Hypothesis Lws : lookup g 0 = Some (mkrule 0 true KNormal ws_body).
Hypothesis Lskip : skip_expr g = Some (EStar (ERef 0 None)).

Lemma M_ws1 c pre d post : is_ws d = true -> M g c (TEval (ERef 0 None)) pre [d] post [].
Proof.
  intros H. eapply M_sref; [exact Lws|]. apply M_alt. apply (Ma_lits _ [32; 9; 13; 10] []).
  rewrite is_ws_mem. exact H.
Qed.

Lemma F_ws1 : rejects g (ERef 0 None) nows.
Proof. apply (rej_ref g _ _ _ Lws). apply rej_alt. repeat constructor; apply rej_str; reflexivity. Qed.

Lemma M_wsstar c w pre post : c_atom c <> NonAtomic -> ws w -> hdP nows post = true ->
  M g c (TEval (EStar (ERef 0 None))) pre w post [].
Proof.
  intros Hc. apply (M_star_class g c (ERef 0 None) is_ws (fun r => hdP nows r = true) Hc).
  - intros pre0 d post0. apply M_ws1.
  - intros pre0 post0. apply F_ws1.
Qed.

(* in a non-atomic context, skip consumes exactly a maximal run of whitespace *)
Lemma MS_ws c pre w post : c_atom c = NonAtomic -> ws w -> hdP nows post = true ->
  MS g c pre w post.
Proof.
  intros Hc Hw Hp. unfold MS. eapply SKo_expr; [exact Hc|exact Lskip|].
  apply M_wsstar; [cbn; discriminate|exact Hw|exact Hp].
Qed.

End WS.

Lemma ascii_lower_e d : (ascii_lower 101 =? ascii_lower d) = ((d =? 101) || (d =? 69)).
Proof.
  change (ascii_lower 101) with 101. unfold ascii_lower.
  destruct (N.leb_spec 65 d); destruct (N.leb_spec d 90); cbn [andb];
    destruct (N.eqb_spec d 101); destruct (N.eqb_spec d 69); cbn [orb];
    try (apply N.eqb_eq; lia); try (apply N.eqb_neq; lia).
Qed.

Lemma digit_props d : is_digit d = true ->
  (45 =? d) = false /\ (46 =? d) = false /\ (48 <= d <= 57).
Proof.
  unfold is_digit. intros H. apply andb_prop in H. destruct H as [A B].
  apply N.leb_le in A. apply N.leb_le in B.
  repeat split; try (apply N.eqb_neq; lia); lia.
Qed.

Lemma nz_digit d : is_nzdigit d = true -> is_digit d = true.
Proof.
  unfold is_nzdigit, is_digit. intros H. apply andb_prop in H. destruct H as [A B].
  rewrite B, andb_true_r. apply N.leb_le in A. apply N.leb_le. lia.
Qed.

Lemma nd_nnz d : is_digit d = false -> is_nzdigit d = false.
Proof. intros H. destruct (is_nzdigit d) eqn:E; [|reflexivity]. apply nz_digit in E. congruence. Qed.

Lemma wf_int_head i : wf_int i = true -> exists d ds, i = d :: ds /\ is_digit d = true.
Proof.
  destruct i as [|d ds]; [discriminate|]. intros H. exists d, ds. split; [reflexivity|].
  cbn [wf_int] in H. destruct (N.eqb_spec d 48) as [->|_]; [reflexivity|].
  apply andb_prop in H. apply nz_digit. apply H.
Qed.

Lemma wf_digits_head ds : wf_digits ds = true ->
  exists d ds', ds = d :: ds' /\ is_digit d = true /\ forallb is_digit ds' = true.
Proof.
  destruct ds as [|d ds']; [discriminate|]. unfold wf_digits. cbn [nonempty andb forallb].
  intros H. apply andb_prop in H. exists d, ds'. split; [reflexivity|exact H].
Qed.

Lemma wf_digits_all ds : wf_digits ds = true -> forallb is_digit ds = true.
Proof. unfold wf_digits. intros H. apply andb_prop in H. apply H. Qed.

Lemma nf2_parts post : hdP nf2 post = true ->
  hdP nf1 post = true /\
  match post with [] => True | d :: _ => (d =? 101) = false /\ (d =? 69) = false end.
Proof.
  destruct post as [|d post]; [split; [reflexivity|exact I]|]. cbn [hdP]. unfold nf2, nf1. intros H.
  apply andb_prop in H. destruct H as [H H4]. apply andb_prop in H. destruct H as [H H3].
  split; [exact H|]. split; apply negb_true_iff; assumption.
Qed.

Lemma nf1_parts post : hdP nf1 post = true ->
  hdP nf0 post = true /\ match post with [] => True | d :: _ => (d =? 46) = false end.
Proof.
  destruct post as [|d post]; [split; [reflexivity|exact I]|]. cbn [hdP]. unfold nf1, nf0. intros H.
  apply andb_prop in H. destruct H as [H1 H2]. split; [exact H1|]. apply negb_true_iff. exact H2.
Qed.

Definition wf_expo (x : N * option N * list N) : bool :=
  let '(e, sg, ds) := x in
  ((e =? 101) || (e =? 69)) &&
  match sg with Some s => (s =? 43) || (s =? 45) | None => true end &&
  wf_digits ds.

Lemma wf_expo_e e sg ds : wf_expo (e, sg, ds) = true -> (e =? 101) || (e =? 69) = true.
Proof.
  cbn [wf_expo]. intros H. apply andb_prop in H. destruct H as [H _]. apply andb_prop in H. apply H.
Qed.

Lemma wf_jnum_parts n : wf_jnum n = true ->
  wf_int (int_part n) = true /\
  (forall ds, frac n = Some ds -> wf_digits ds = true) /\
  (forall x, expo n = Some x -> wf_expo x = true).
Proof.
  unfold wf_jnum. intros H. apply andb_prop in H. destruct H as [H He].
  apply andb_prop in H. destruct H as [Hi Hf]. split; [exact Hi|]. split.
  - intros ds E. rewrite E in Hf. exact Hf.
  - intros [[e sg] ds] E. rewrite E in He. exact He.
Qed.

Lemma hd_expo n post : (forall x, expo n = Some x -> wf_expo x = true) ->
  hdP nf2 post = true -> hdP nf1 (expo_text n ++ post) = true.
Proof.
  intros H Hp. unfold expo_text. destruct (expo n) as [[[e sg] ds]|].
  - pose proof (wf_expo_e _ _ _ (H _ eq_refl)) as He. cbn [app hdP]. clear H. rename He into H.
    apply orb_prop in H. destruct H as [H|H]; apply N.eqb_eq in H; subst e; reflexivity.
  - apply nf2_parts. exact Hp.
Qed.

Lemma hd_frac n post : hdP nf1 post = true -> hdP nf0 (frac_text n ++ post) = true.
Proof.
  intros Hp. unfold frac_text. destruct (frac n).
  - reflexivity.
  - apply nf1_parts. exact Hp.
Qed.

Section Number.
Variables nd nz : N.
Hypothesis Lnd : lookup g nd = Some (mkrule nd true KNormal (ERange 48 57)).
Hypothesis Lnz : lookup g nz = Some (mkrule nz true KNormal (ERange 49 57)).

Lemma M_digit c pre d post : is_digit d = true -> M g c (TEval (ERef nd None)) pre [d] post [].
Proof. intros H. eapply M_sref; [exact Lnd|]. apply M_range. exact H. Qed.

Lemma F_digit : rejects g (ERef nd None) nf0.
Proof. apply (rej_ref g _ _ _ Lnd). apply rej_range. intros d H. apply negb_true_iff. exact H. Qed.

Lemma M_nzdigit c pre d post : is_nzdigit d = true -> M g c (TEval (ERef nz None)) pre [d] post [].
Proof. intros H. eapply M_sref; [exact Lnz|]. apply M_range. exact H. Qed.

Lemma F_nzdigit : rejects g (ERef nz None) nf0.
Proof.
  apply (rej_ref g _ _ _ Lnz). apply rej_range. intros d H. apply nd_nnz. apply negb_true_iff. exact H.
Qed.

Variable c : ctx.
Hypothesis Hc : c_atom c <> NonAtomic.

Lemma M_digits ds pre post : forallb is_digit ds = true -> hdP nf0 post = true ->
  M g c (TEval (EStar (ERef nd None))) pre ds post [].
Proof.
  apply (M_star_class g c (ERef nd None) is_digit (fun r => hdP nf0 r = true) Hc).
  - intros pre0 d post0. apply M_digit.
  - intros pre0 post0. apply F_digit.
Qed.

Lemma M_digits1 ds pre post : wf_digits ds = true -> hdP nf0 post = true ->
  M g c (TEval (EPlus (ERef nd None))) pre ds post [].
Proof.
  intros H. destruct ds as [|d ds']; [discriminate|]. revert H.
  apply (M_plus_class g c (ERef nd None) is_digit (fun r => hdP nf0 r = true) Hc).
  - intros pre0 d0 post0. apply M_digit.
  - intros pre0 post0. apply F_digit.
Qed.

(* "0" | ASCII_NONZERO_DIGIT ~ ASCII_DIGIT* *)
Definition int_alt := EAlt [EStr [48]; ESeq [ERef nz None; EStar (ERef nd None)]].

Lemma M_int_alt i pre post : wf_int i = true -> hdP nf0 post = true ->
  M g c (TEval int_alt) pre i post [].
Proof.
  intros H Hp. destruct i as [|d ds]; [discriminate|]. cbn [wf_int] in H.
  apply M_alt. destruct (N.eqb_spec d 48) as [->|Hd].
  - destruct ds; [|discriminate]. apply Ma_first. apply M_str.
  - apply andb_prop in H. destruct H as [H1 H2]. apply Ma_next.
    + apply F_str. apply sp1. apply N.eqb_neq. exact Hd.
    + apply Ma_first. apply M_seq.
      apply (Ms_cons_a g [d] ds [] []); [exact Hc| |].
      * apply M_nzdigit. exact H1.
      * apply Ms_one. apply M_digits; assumption.
Qed.

Lemma F_int_alt : rejects g int_alt nf0.
Proof.
  apply rej_alt. repeat constructor; [apply rej_str; reflexivity|apply rej_seq; exact F_nzdigit].
Qed.

(* "-"? before the integer part *)
Lemma M_minus n pre d r : is_digit d = true ->
  M g c (TEval (EOpt (EStr [45]))) pre (sign_text n) (d :: r) [].
Proof.
  intros Hd. unfold sign_text. destruct (neg n).
  - apply M_opt_some. apply M_str.
  - apply M_opt_none. apply F_str. cbn [strip_prefix].
    destruct (digit_props d Hd) as [A _]. rewrite A. reflexivity.
Qed.

(* e/E (matched by eE), an optional sign, digits *)
Lemma M_exp_seq eE e sg ds pre post :
  (forall pre post, M g c (TEval eE) pre [e] post []) ->
  wf_expo (e, sg, ds) = true -> hdP nf0 post = true ->
  M g c (TSeq [eE; e_sign; EPlus (ERef nd None)]) pre
    (e :: match sg with Some s => [s] | None => [] end ++ ds) post [].
Proof.
  intros HeE H Hp. cbn [wf_expo] in H.
  apply andb_prop in H. destruct H as [H H3]. apply andb_prop in H. destruct H as [_ H2].
  destruct (wf_digits_head ds H3) as [d0 [ds' [Eds [Hd0 _]]]].
  apply (Ms_cons_a g [e] _ [] []); [exact Hc|apply HeE|].
  apply (Ms_cons_a g (match sg with Some s => [s] | None => [] end) ds [] []);
    [exact Hc| |apply Ms_one; apply M_digits1; assumption].
  unfold e_sign. rewrite Eds. destruct sg as [s|].
  - apply M_opt_some. apply M_grp. apply M_alt. apply (Ma_lits c [43; 45] []).
    cbn [memN]. rewrite orb_false_r. exact H2.
  - apply M_opt_none. apply F_grp. apply F_alt. apply (Fa_lits c [43; 45] []); [|apply Fa_nil].
    destruct (digit_props d0 Hd0) as [_ [_ B]]. cbn [app memN].
    rewrite (proj2 (N.eqb_neq d0 43)), (proj2 (N.eqb_neq d0 45)) by lia. reflexivity.
Qed.

Lemma F_number_seq c' eint rest pre r : c_atom c' <> NonAtomic -> rejects g eint nf0 ->
  hdP (fun d => negb (is_digit d || (d =? 45))) r = true ->
  F g c' (TEval (ESeq (EOpt (EStr [45]) :: eint :: rest))) pre r.
Proof.
  intros Hc' Hi Hr. apply F_seq.
  apply (Fs_later_a g [] []); [exact Hc'| |].
  - apply M_opt_none. exact (rej_str g _ 45 [] eq_refl c' pre r Hr).
  - rewrite app_nil_r. apply Fs_first. apply Hi. revert Hr. apply hdP_imp.
    intros d H. apply negb_true_iff in H. apply orb_false_iff in H. apply negb_true_iff. apply H.
Qed.

End Number.

Lemma M_notq c pre d post : (d =? 34) = false -> (d =? 92) = false ->
  M g c (TEval e_notq) pre [] (d :: post) [].
Proof.
  intros H1 H2. apply M_not. apply F_grp. apply F_alt.
  apply (Fa_lits _ [34; 92] []); [|apply Fa_nil]. cbn [memN]. rewrite H1, H2. reflexivity.
Qed.

Lemma F_notq_fail c pre d post : (d =? 34) || (d =? 92) = true ->
  F g c (TEval e_notq) pre (d :: post).
Proof.
  intros H. apply (F_not g c _ pre [d] post []). apply M_grp. apply M_alt.
  apply (Ma_lits _ [34; 92] []). cbn [memN]. rewrite orb_false_r. exact H.
Qed.

(* !(quote | backslash) ~ ANY *)
Lemma M_plain_seq c na pre d post : lookup g na = Some (mkrule na true KNormal EAny) ->
  c_atom c <> NonAtomic -> (d =? 34) = false -> (d =? 92) = false ->
  M g c (TSeq [e_notq; ERef na None]) pre [d] post [].
Proof.
  intros L Hc H1 H2.
  apply (Ms_cons_a g [] [d] [] []); [exact Hc|apply M_notq; assumption|].
  rewrite app_nil_r. apply Ms_one. eapply M_sref; [exact L|]. apply M_any.
Qed.

(* the characters that may follow a backslash, besides u *)
Definition esc_chars : list N := [34; 92; 47; 98; 102; 110; 114; 116].

Lemma M_esc_seq c more pre ch post : c_atom c <> NonAtomic -> memN ch esc_chars = true ->
  M g c (TSeq [EStr [92]; EGrp (EAlt (lits esc_chars ++ more)) None]) pre [92; ch] post [].
Proof.
  intros Hc H. apply (Ms_cons_a g [92] [ch] [] []); [exact Hc|apply M_str|].
  apply Ms_one. apply M_grp. apply M_alt. apply Ma_lits. exact H.
Qed.

Section Hex.
Variable nh : N.
Hypothesis Lnh : lookup g nh = Some (mkrule nh true KNormal hex_body).

Lemma M_hex c pre h post : is_hex h = true -> M g c (TEval (ERef nh None)) pre [h] post [].
Proof.
  intros H. eapply M_sref; [exact Lnh|]. apply M_alt.
  unfold is_hex, is_digit in H.
  destruct ((48 <=? h) && (h <=? 57))%bool eqn:E1.
  - apply Ma_first. apply M_range. exact E1.
  - apply Ma_next; [apply F_range; exact E1|].
    destruct ((97 <=? h) && (h <=? 102))%bool eqn:E2.
    + apply Ma_first. apply M_range. exact E2.
    + apply Ma_next; [apply F_range; exact E2|].
      apply Ma_first. apply M_range. exact H.
Qed.

(* "u" ~ ASCII_HEX_DIGIT{4} *)
Lemma M_uni_seq c h1 h2 h3 h4 pre post : c_atom c <> NonAtomic ->
  is_hex h1 && is_hex h2 && is_hex h3 && is_hex h4 = true ->
  M g c (TSeq [EStr [117]; ERepN (ERef nh None) 4]) pre [117; h1; h2; h3; h4] post [].
Proof.
  intros Hc H. apply andb_prop in H. destruct H as [H H4]. apply andb_prop in H. destruct H as [H H3].
  apply andb_prop in H. destruct H as [H1 H2].
  apply (Ms_cons_a g [117] [h1; h2; h3; h4] [] []); [exact Hc|apply M_str|].
  apply Ms_one. apply M_repn. cbn [repeat]. apply M_seq.
  apply (Ms_cons_a g [h1] [h2; h3; h4] [] []); [exact Hc|apply M_hex; exact H1|].
  apply (Ms_cons_a g [h2] [h3; h4] [] []); [exact Hc|apply M_hex; exact H2|].
  apply (Ms_cons_a g [h3] [h4] [] []); [exact Hc|apply M_hex; exact H3|].
  apply Ms_one. apply M_hex. exact H4.
Qed.

End Hex.

(* quote ~ inner ~ quote *)
Lemma M_string_seq c ni s pre post kids : c_atom c <> NonAtomic ->
  M g c (TEval (ERef ni None)) (pre ++ [34]) (chars_text s) ([34] ++ post) kids ->
  M g c (TSeq [EStr [34]; ERef ni None; EStr [34]]) pre (str_text s) post kids.
Proof.
  intros Hc H.
  apply (Ms_cons_a g [34] (chars_text s ++ [34]) [] kids); [exact Hc|apply M_str|].
  eapply M_ps; [apply app_nil_r|].
  apply (Ms_cons_a g (chars_text s) [34] kids []);
    [exact Hc|exact H|apply Ms_one; apply M_str].
Qed.

Lemma rej_ref_lit n s k a rest : lookup g n = Some (mkrule n s k (ESeq (EStr [a] :: rest))) ->
  rejects g (ERef n None) (fun d => negb (d =? a)).
Proof.
  intros L. apply (rej_ref g _ _ _ L). apply rej_seq. apply rej_str. rewrite N.eqb_refl. reflexivity.
Qed.

End Lexical.

Lemma skel_pair input pre x post n kids : input = pre ++ x ++ post ->
  skel input (Pair n (lenN pre) (lenN (pre ++ x)) kids None) = SK n x (map (skel input) kids).
Proof. intros H. cbn [skel]. rewrite (slice_in input pre x post H). reflexivity. Qed.

(* `Y c tk r r' ts`: wherever the text r stands in an input, task tk stops in front of its
   suffix r', and the skeletons of the pairs it delivers are related by R, one by one, to ts.
   `YS c r r'`: implicit whitespace takes r to r'.  Two derivations compose when the text one
   leaves is, literally, the text the next one starts from. *)
Section Delivering.
Context {g : grammar} {A : Type} {R : A -> sk -> Prop}.

Definition Y (c : ctx) (tk : task) (r r' : text) (ts : list A) : Prop :=
  exists x, r = x ++ r' /\ forall input pre, input = pre ++ r ->
    exists ps, M g c tk pre x r' ps /\ Forall2 R ts (map (skel input) ps).

Definition YS (c : ctx) (r r' : text) : Prop := exists w, r = w ++ r' /\ forall pre, MS g c pre w r'.

Lemma Y_M c tk x r' ts : Y c tk (x ++ r') r' ts -> forall input pre, input = pre ++ x ++ r' ->
  exists ps, M g c tk pre x r' ps /\ Forall2 R ts (map (skel input) ps).
Proof. intros [x0 [E H]]. apply app_inv_tail in E. subst x0. exact H. Qed.

Lemma Y_text c tk r1 r2 ts r1' : Y c tk r1 r2 ts -> r1 = r1' -> Y c tk r1' r2 ts.
Proof. intros H <-. exact H. Qed.

Lemma Y_map c tk c' tk' r r' ts :
  (forall pre x ps, M g c tk pre x r' ps -> M g c' tk' pre x r' ps) -> Y c tk r r' ts -> Y c' tk' r r' ts.
Proof.
  intros HM [x [E H]]. exists x. split; [exact E|]. intros input pre Hin.
  destruct (H input pre Hin) as [ps [H1 H2]]. exists ps. split; [apply HM; exact H1|exact H2].
Qed.

Lemma Y_seq c es r r' ts : Y c (TSeq es) r r' ts -> Y c (TEval (ESeq es)) r r' ts.
Proof. apply Y_map. intros pre x ps. apply M_seq. Qed.
Lemma Y_alt c es r r' ts : Y c (TAlt es) r r' ts -> Y c (TEval (EAlt es)) r r' ts.
Proof. apply Y_map. intros pre x ps. apply M_alt. Qed.
Lemma Y_grp c e r r' ts : Y c (TEval e) r r' ts -> Y c (TEval (EGrp e None)) r r' ts.
Proof. apply Y_map. intros pre x ps. apply M_grp. Qed.
Lemma Y_one c e r r' ts : Y c (TEval e) r r' ts -> Y c (TSeq [e]) r r' ts.
Proof. apply Y_map. intros pre x ps. apply Ms_one. Qed.
Lemma Y_first c e es r r' ts : Y c (TEval e) r r' ts -> Y c (TAlt (e :: es)) r r' ts.
Proof. apply Y_map. intros pre x ps. apply Ma_first. Qed.

Lemma Y_sref c n k b r r' ts : lookup g n = Some (mkrule n true k b) ->
  Y (rule_ctx c (mkrule n true k b)) (TEval b) r r' ts -> Y c (TEval (ERef n None)) r r' ts.
Proof. intros L. apply Y_map. intros pre x ps. apply M_sref. exact L. Qed.

Lemma Y_next c e es r r' ts : (forall pre, F g c (TEval e) pre r) ->
  Y c (TAlt es) r r' ts -> Y c (TAlt (e :: es)) r r' ts.
Proof.
  intros HF [x [-> H]]. exists x. split; [reflexivity|]. intros input pre Hin.
  destruct (H input pre Hin) as [ps [H1 H2]]. exists ps. split; [|exact H2].
  apply Ma_next; [apply HF|exact H1].
Qed.

Lemma Y_quiet c tk x r : (forall pre, M g c tk pre x r []) -> Y c tk (x ++ r) r [].
Proof.
  intros H. exists x. split; [reflexivity|]. intros input pre _. exists []. split; [apply H|constructor].
Qed.

Lemma Y_str c lit r : Y c (TEval (EStr lit)) (lit ++ r) r [].
Proof. apply Y_quiet. intros pre. apply M_str. Qed.

Lemma Y_pair c tk x r a :
  (forall input pre, input = pre ++ x ++ r -> exists m kids,
     M g c tk pre x r [Pair m (lenN pre) (lenN (pre ++ x)) kids None] /\
     R a (SK m x (map (skel input) kids))) ->
  Y c tk (x ++ r) r [a].
Proof.
  intros H. exists x. split; [reflexivity|]. intros input pre Hin.
  destruct (H input pre Hin) as [m [kids [HM HR]]]. eexists. split; [exact HM|].
  cbn [map]. rewrite (skel_pair input pre x r m kids Hin). constructor; [exact HR|constructor].
Qed.

Lemma Y_leaf c tk n x a r : R a (SK n x []) ->
  (forall pre, M g c tk pre x r [Pair n (lenN pre) (lenN (pre ++ x)) [] None]) -> Y c tk (x ++ r) r [a].
Proof. intros Ha H. apply Y_pair. intros input pre _. exists n, []. split; [apply H|exact Ha]. Qed.

Lemma Y_M1 c tk x r' a : Y c tk (x ++ r') r' [a] -> forall input pre, input = pre ++ x ++ r' ->
  exists pr, M g c tk pre x r' [pr] /\ R a (skel input pr).
Proof.
  intros H input pre Hin. destruct (Y_M c tk x r' [a] H input pre Hin) as [ps [HM HF]].
  destruct ps as [|pr [|? ?]]; inversion HF as [|? ? ? ? HR HF']; subst; [|inversion HF'].
  exists pr. split; [exact HM|exact HR].
Qed.

Lemma Y_seq_cons c e1 e2 es r r1 r2 r3 t1 t3 :
  Y c (TEval e1) r r1 t1 -> YS c r1 r2 -> Y c (TSeq (e2 :: es)) r2 r3 t3 ->
  Y c (TSeq (e1 :: e2 :: es)) r r3 (t1 ++ t3).
Proof.
  intros [x1 [-> H1]] [w [-> HS]] [x2 [-> H3]]. exists (x1 ++ w ++ x2). split; [assoc|].
  intros input pre Hin. destruct (H1 input pre Hin) as [ps1 [M1 T1]].
  destruct (H3 input (pre ++ x1 ++ w)) as [ps3 [M3 T3]]; [rewrite Hin; assoc|].
  exists (ps1 ++ ps3). split; [apply Ms_cons; [exact M1|apply HS|exact M3]|].
  rewrite map_app. apply Forall2_app; assumption.
Qed.

Lemma Y_seq_end c e1 e2 r r1 r2 r3 t1 :
  Y c (TEval e1) r r1 t1 -> YS c r1 r2 -> Y c (TEval e2) r2 r3 [] -> Y c (TSeq [e1; e2]) r r3 t1.
Proof.
  intros H1 HS H2. rewrite <- (app_nil_r t1). exact (Y_seq_cons c e1 e2 [] r r1 r2 r3 t1 [] H1 HS (Y_one c e2 r2 r3 [] H2)).
Qed.

Lemma Y_star_stop c e r : (forall pre, F g c (TEval e) pre r) -> Y c (TEval (EStar e)) r r [].
Proof. intros H. apply (Y_quiet c _ [] r). intros pre. apply M_star_stop. apply H. Qed.

Lemma Y_star_go c e r r1 r2 t1 t2 :
  Y c (TEval e) r r1 t1 -> Y c (TStar e) r1 r2 t2 -> Y c (TEval (EStar e)) r r2 (t1 ++ t2).
Proof.
  intros [x1 [-> H1]] [x2 [-> H2]]. exists (x1 ++ x2). split; [assoc|].
  intros input pre Hin. destruct (H1 input pre Hin) as [ps1 [M1 T1]].
  destruct (H2 input (pre ++ x1)) as [ps2 [M2 T2]]; [rewrite Hin; assoc|].
  exists (ps1 ++ ps2). split; [apply M_star_go; assumption|].
  rewrite map_app. apply Forall2_app; assumption.
Qed.

Lemma YT_stop c e r r1 : YS c r r1 -> (forall pre, F g c (TEval e) pre r1) -> Y c (TStar e) r r [].
Proof.
  intros [w [-> HS]] HF. apply (Y_quiet c _ [] (w ++ r1)). intros pre.
  apply MT_stop; [apply HS|apply HF].
Qed.

Lemma YT_go c e r r1 r2 r3 t2 t3 :
  YS c r r1 -> Y c (TEval e) r1 r2 t2 -> Y c (TStar e) r2 r3 t3 -> Y c (TStar e) r r3 (t2 ++ t3).
Proof.
  intros [w [-> HS]] [x1 [-> H1]] [x2 [-> H2]]. exists (w ++ x1 ++ x2). split; [assoc|].
  intros input pre Hin. destruct (H1 input (pre ++ w)) as [ps1 [M1 T1]]; [rewrite Hin; assoc|].
  destruct (H2 input (pre ++ w ++ x1)) as [ps2 [M2 T2]]; [rewrite Hin; assoc|].
  exists (ps1 ++ ps2). split; [apply MT_go; [apply HS|exact M1|exact M2]|].
  rewrite map_app. apply Forall2_app; assumption.
Qed.

End Delivering.

Arguments Y g {A} R c tk r r' ts.
Arguments YS : clear implicits.

(* outside the section: the children and the node are related to values of two types *)
Lemma Y_rule {g A'} {R' : A' -> sk -> Prop} {A} {R : A -> sk -> Prop} c n k b r r' ts' a :
  lookup g n = Some (mkrule n false k b) -> c_atom c <> Atomic ->
  Y g R' (rule_ctx c (mkrule n false k b)) (TEval b) r r' ts' ->
  (forall x kids, r = x ++ r' -> Forall2 R' ts' kids -> R a (SK n x kids)) ->
  Y g R c (TEval (ERef n None)) r r' [a].
Proof.
  intros L Hc [x [E H]] HK. subst r. apply Y_pair. intros input pre Hin.
  destruct (H input pre Hin) as [ps [HM HT]]. exists n, ps. split.
  - exact (M_vref g c n false k b pre x r' ps L Hc HM).
  - apply HK; [reflexivity|exact HT].
Qed.

(* what may follow a value inside a document: whitespace, a comma, a closing bracket, the end *)
Definition follow (d : N) : bool := is_ws d || (d =? 44) || (d =? 93) || (d =? 125).

Lemma follow_nf2 post : hdP follow post = true -> hdP nf2 post = true.
Proof.
  destruct post as [|d post]; [reflexivity|]. cbn [hdP]. unfold follow. intros H.
  assert (K : d = 32 \/ d = 9 \/ d = 13 \/ d = 10 \/ d = 44 \/ d = 93 \/ d = 125).
  { destruct (is_ws d) eqn:E; [apply is_ws_cases in E; tauto|]. cbn [orb] in H.
    destruct (N.eqb_spec d 44); [tauto|]. destruct (N.eqb_spec d 93); [tauto|].
    destruct (N.eqb_spec d 125); [tauto|]. discriminate. }
  destruct K as [-> | [-> | [-> | [-> | [-> | [-> | ->]]]]]]; reflexivity.
Qed.

Lemma hd_ws_then (P : N -> bool) w r : (forall a, is_ws a = true -> P a = true) ->
  ws w -> hdP P r = true -> hdP P (w ++ r) = true.
Proof.
  intros HP Hw Hr. destruct w as [|a w]; [exact Hr|]. apply HP. apply (ws_cons a w Hw).
Qed.

Lemma follow_ws a : is_ws a = true -> follow a = true.
Proof. intros H. unfold follow. rewrite H. reflexivity. Qed.

Lemma ws_follow w : ws w -> hdP follow w = true.
Proof.
  intros H. rewrite <- (app_nil_r w). apply hd_ws_then; [apply follow_ws|exact H|reflexivity].
Qed.

Lemma follow_close wl cl post : ws wl -> follow cl = true -> hdP follow (wl ++ cl :: post) = true.
Proof. intros Hw Hc. apply hd_ws_then; [apply follow_ws|exact Hw|exact Hc]. Qed.

Lemma digit_neq d a : is_digit d = true -> a < 48 \/ 57 < a -> (d =? a) = false.
Proof. intros Hd Ha. destruct (digit_props d Hd) as [_ [_ B]]. apply N.eqb_neq. lia. Qed.

Lemma num_head n : wf_jnum n = true ->
  exists d x', num_text n = d :: x' /\ is_digit d || (d =? 45) = true.
Proof.
  intros H. destruct (wf_jnum_parts n H) as [Hi _]. unfold num_text, sign_text.
  destruct (neg n).
  - eexists. eexists. split; reflexivity.
  - destruct (wf_int_head _ Hi) as [d [ds [E Hd]]]. rewrite E. eexists. eexists.
    split; [reflexivity|]. rewrite Hd. reflexivity.
Qed.

Lemma num_start_facts d : is_digit d || (d =? 45) = true ->
  nows d = true /\ (93 =? d) = false /\ (d =? 123) = false /\ (d =? 91) = false /\ (d =? 34) = false.
Proof.
  intros Hd. apply orb_prop in Hd. destruct Hd as [Hd|Hd].
  - unfold nows, is_ws. rewrite (N.eqb_sym 93), !(fun a => digit_neq d a Hd) by lia. repeat split.
  - apply N.eqb_eq in Hd. subst d. repeat split.
Qed.

Lemma renders_nows v x : renders v x -> wf_jv v = true ->
  exists d x', x = d :: x' /\ nows d = true /\ (93 =? d) = false.
Proof.
  intros H Hw. destruct H; try (eexists; eexists; split; [reflexivity|split; reflexivity]).
  - destruct b; eexists; eexists; (split; [reflexivity|split; reflexivity]).
  - destruct (num_head n Hw) as [d [x' [E Hd]]]. exists d, x'. split; [exact E|].
    destruct (num_start_facts d Hd) as [A [B _]]. split; assumption.
Qed.

Lemma renders_hd v x r : renders v x -> wf_jv v = true -> hdP nows (x ++ r) = true.
Proof. intros H Hw. destruct (renders_nows v x H Hw) as [d [x' [-> [Hd _]]]]. exact Hd. Qed.

(* the (ws , ws element)* parts never start with something that would extend a number *)
Definition tl_ok (tl : text) : Prop :=
  forall r, hdP follow r = true -> hdP follow (tl ++ r) = true.

Lemma tl_ok_nil : tl_ok [].
Proof. intros r H. exact H. Qed.

Lemma tl_ok_cons w2 rest : ws w2 -> tl_ok (w2 ++ [44] ++ rest).
Proof.
  intros Hw r _. rewrite <- app_assoc. apply hd_ws_then; [apply follow_ws|exact Hw|reflexivity].
Qed.

Lemma renders_tail_ok vs tl : renders_tail vs tl -> tl_ok tl.
Proof. intros H. destruct H; [apply tl_ok_nil|apply tl_ok_cons; assumption]. Qed.

Lemma renders_mtail_ok ms tl : renders_mtail ms tl -> tl_ok tl.
Proof. intros H. destruct H; [apply tl_ok_nil|apply tl_ok_cons; assumption]. Qed.

Definition wfm (m : list jchar * jv) : bool := forallb wf_jchar (fst m) && wf_jv (snd m).

(*   open ~ close | open ~ elem ~ ("," ~ elem)* ~ close   *)
Definition e_empty (op cl : N) : expr := ESeq [EStr [op]; EStr [cl]].
Definition e_full (k op cl : N) : expr := ESeq [EStr [op]; ERef k None; EStar (e_more k); EStr [cl]].
Definition coll_body (k op cl : N) : expr :=
  EAlt [ESeq [EStr [op]; EStr [cl]]; ESeq [EStr [op]; ERef k None; EStar (e_more k); EStr [cl]]].

Definition either (b e1 e2 : expr) : Prop := b = EAlt [e1; e2] \/ b = EAlt [e2; e1].

Lemma either_sym b e1 e2 : either b e1 e2 -> either b e2 e1.
Proof. intros [H|H]; [right|left]; exact H. Qed.

Section Struct.
Variable g : grammar.

Lemma M_either c b e1 e2 pre x post ps : either b e1 e2 ->
  M g c (TEval e1) pre x post ps -> F g c (TEval e2) pre (x ++ post) -> M g c (TEval b) pre x post ps.
Proof.
  intros [-> | ->] H1 H2; apply M_alt.
  - apply Ma_first. exact H1.
  - apply Ma_next; [exact H2|]. apply Ma_first. exact H1.
Qed.

Definition starts_with (n : N) (P : N -> bool) : Prop := rejects g (ERef n None) (fun d => negb (P d)).

Lemma starts_fails n P c pre d r : starts_with n P -> P d = false -> F g c (TEval (ERef n None)) pre (d :: r).
Proof. intros H E. apply H. cbn [hdP]. rewrite E. reflexivity. Qed.

Definition refs (tab : list (N * (N -> bool))) : list expr := map (fun a => ERef (fst a) None) tab.

Definition pick (tab : list (N * (N -> bool))) (d : N) : option N :=
  option_map fst (find (fun a => snd a d) tab).

Lemma Ma_pick c tab n pre d x' post ps :
  Forall (fun a => starts_with (fst a) (snd a)) tab -> pick tab d = Some n ->
  M g c (TEval (ERef n None)) pre (d :: x') post ps -> M g c (TAlt (refs tab)) pre (d :: x') post ps.
Proof.
  intros Ht. induction Ht as [|[m Q] tab Hm _ IH]; [discriminate|].
  unfold pick. cbn [find snd fst refs map]. destruct (Q d) eqn:E.
  - intros [= ->] H. apply Ma_first. exact H.
  - intros Hp H. apply Ma_next; [exact (starts_fails m Q c pre d _ Hm E)|]. apply IH; assumption.
Qed.

Lemma Fa_pick c tab pre d r :
  Forall (fun a => starts_with (fst a) (snd a)) tab -> pick tab d = None ->
  F g c (TAlt (refs tab)) pre (d :: r).
Proof.
  intros Ht. induction Ht as [|[m Q] tab Hm _ IH]; intros Hp; [apply Fa_nil|].
  unfold pick in Hp. cbn [find snd fst] in Hp. cbn [refs map fst]. destruct (Q d) eqn:E; [discriminate|].
  apply Fa_cons; [exact (starts_fails m Q c pre d r Hm E)|apply IH; exact Hp].
Qed.

Lemma coll_starts n s k b j op cl : lookup g n = Some (mkrule n s k b) ->
  either b (e_empty op cl) (e_full j op cl) -> starts_with n (fun d => d =? op).
Proof.
  intros L Hb. apply (rej_ref g _ _ _ L).
  assert (K : forall rest, rejects g (ESeq (EStr [op] :: rest)) (fun d => negb (d =? op))).
  { intros rest. apply rej_seq. apply rej_str. rewrite N.eqb_refl. reflexivity. }
  destruct Hb as [-> | ->]; apply rej_alt; repeat constructor; apply K.
Qed.

Lemma boolean_starts n s k : lookup g n = Some (mkrule n s k boolean_body) ->
  starts_with n (fun d => (d =? 116) || (d =? 102)).
Proof.
  intros L. apply (rej_ref g _ _ _ L). apply rej_alt. repeat constructor; apply rej_str; reflexivity.
Qed.

Lemma null_starts n s k : lookup g n = Some (mkrule n s k (EStr null_text)) ->
  starts_with n (fun d => d =? 110).
Proof. intros L. apply (rej_ref g _ _ _ L). apply rej_str. reflexivity. Qed.

(* rule k applied to the text xe of a, anywhere in an input: one pair over xe, related to a *)
Definition elemP (k : N) (A : Type) (R : A -> sk -> Prop) (a : A) (xe : text) : Prop :=
  forall c, c_atom c = NonAtomic -> forall input pre post,
  hdP follow post = true -> input = pre ++ xe ++ post ->
  exists m kids,
    M g c (TEval (ERef k None)) pre xe post [Pair m (lenN pre) (lenN (pre ++ xe)) kids None] /\
    R a (SK m xe (map (skel input) kids)).

(* `value` is a choice among rules; its own pair, if it is not silent, wraps the chosen one *)
Lemma value_of nv sv tab (Rc Rv : jv -> sk -> Prop) n v d x' :
  lookup g nv = Some (mkrule nv sv KNormal (EAlt (refs tab))) ->
  negb (is_trivia_name nv) = true ->
  Forall (fun a => starts_with (fst a) (snd a)) tab ->
  (forall m sl kids, Rc v (SK m sl kids) ->
     Rv v (if sv then SK m sl kids else SK nv sl [SK m sl kids])) ->
  pick tab d = Some n ->
  elemP n jv Rc v (d :: x') -> elemP nv jv Rv v (d :: x').
Proof.
  intros Lv Hnv Htab Hval Hp H c Hc input pre post Hf Hin.
  destruct (H (rctx c nv sv (EAlt (refs tab))) (rctx_na c nv sv _ Hnv Hc) input pre post Hf Hin)
    as [m [kids [HM HR]]].
  pose proof (M_vref g c nv sv KNormal _ pre _ post _ Lv (na_not_atomic c Hc) (M_alt g _ _ _ _ _ _ (Ma_pick _ _ _ _ _ _ _ _ Htab Hp HM))) as HV.
  specialize (Hval m _ _ HR). destruct sv.
  - exists m, kids. split; [exact HV|exact Hval].
  - eexists. eexists. split; [exact HV|]. cbn [map]. rewrite (skel_pair input pre _ post m kids Hin).
    exact Hval.
Qed.

Lemma value_fails nv sv tab c pre d r :
  lookup g nv = Some (mkrule nv sv KNormal (EAlt (refs tab))) ->
  Forall (fun a => starts_with (fst a) (snd a)) tab -> pick tab d = None ->
  F g c (TEval (ERef nv None)) pre (d :: r).
Proof. intros Lv Htab Hp. eapply F_ref; [exact Lv|]. apply F_alt. apply Fa_pick; assumption. Qed.

Lemma leaf_elem n (R : jv -> sk -> Prop) v x :
  (forall c pre post, c_atom c = NonAtomic -> hdP follow post = true ->
     M g c (TEval (ERef n None)) pre x post [Pair n (lenN pre) (lenN (pre ++ x)) [] None]) ->
  R v (SK n x []) -> elemP n jv R v x.
Proof.
  intros HM HR c Hc input pre post Hf Hin. exists n, []. split; [apply HM; assumption|exact HR].
Qed.

Lemma null_elem n (R : jv -> sk -> Prop) :
  lookup g n = Some (mkrule n false KNormal (EStr null_text)) -> R JNull (SK n null_text []) ->
  elemP n jv R JNull null_text.
Proof.
  intros L HR. apply leaf_elem; [|exact HR]. intros c pre post Hc _.
  apply (M_vref g c n false KNormal _ pre _ post [] L (na_not_atomic c Hc)). apply M_str.
Qed.

Lemma bool_elem n (R : jv -> sk -> Prop) b :
  lookup g n = Some (mkrule n false KNormal boolean_body) -> R (JBool b) (SK n (bool_text b) []) ->
  elemP n jv R (JBool b) (bool_text b).
Proof.
  intros L HR. apply leaf_elem; [|exact HR]. intros c pre post Hc _.
  apply (M_vref g c n false KNormal _ pre _ post [] L (na_not_atomic c Hc)). apply M_alt. destruct b.
  - apply Ma_first. apply M_str.
  - apply Ma_next; [apply F_str; reflexivity|]. apply Ma_first. apply M_str.
Qed.

Hypothesis skipws : forall c pre w post, c_atom c = NonAtomic -> ws w -> hdP nows post = true ->
  MS g c pre w post.

Lemma YS_ws c w r : c_atom c = NonAtomic -> ws w -> hdP nows r = true -> YS g c (w ++ r) r.
Proof. intros Hc Hw Hr. exists w. split; [reflexivity|]. intros pre. apply skipws; assumption. Qed.

Lemma Y_elem k A (R : A -> sk -> Prop) a xe c post : elemP k A R a xe -> c_atom c = NonAtomic ->
  hdP follow post = true -> Y g R c (TEval (ERef k None)) (xe ++ post) post [a].
Proof. intros H Hc Hf. apply Y_pair. intros input pre Hin. exact (H c Hc input pre post Hf Hin). Qed.

Section Coll.
Variables k op cl : N.
Hypothesis cl_nows : nows cl = true.
Hypothesis cl_follow : follow cl = true.
Hypothesis cl_comma : (44 =? cl) = false.
Hypothesis elem_close : forall c pre post, F g c (TEval (ERef k None)) pre (cl :: post).
Variable A : Type.
Variable R : A -> sk -> Prop.

(* ("," ~ elem)* before the closing character, twice: as a TStar (what the induction over the
   tail goes through) and as the rest of the rule's sequence from the element in front of it
   (the star entered for the first time: what the rule needs) *)
Definition tailP (vs : list A) (tl : text) : Prop :=
  forall c, c_atom c = NonAtomic -> forall wl post, ws wl ->
  Y g R c (TStar (e_more k)) (tl ++ wl ++ cl :: post) (wl ++ cl :: post) vs /\
  forall e1 r0 t1, Y g R c (TEval e1) r0 (tl ++ wl ++ cl :: post) t1 ->
    Y g R c (TSeq [e1; EStar (e_more k); EStr [cl]]) r0 post (t1 ++ vs).

Lemma F_more_close c pre post : F g c (TEval (e_more k)) pre (cl :: post).
Proof.
  unfold e_more. apply F_grp. apply F_seq. apply Fs_first. apply F_str.
  cbn [strip_prefix]. rewrite cl_comma. reflexivity.
Qed.

Lemma tail_nil : tailP [] [].
Proof.
  intros c Hc wl post Hwl. assert (HS := YS_ws c wl (cl :: post) Hc Hwl cl_nows). cbn [app]. split.
  - exact (YT_stop c (e_more k) _ _ HS (fun pre => F_more_close c pre post)).
  - intros e1 r0 t1 H1. eapply Y_seq_cons; [exact H1|exact HS|].
    apply (Y_seq_end c _ _ (cl :: post) (cl :: post) (cl :: post) post []).
    + apply Y_star_stop. intros pre. apply F_more_close.
    + exact (YS_ws c [] (cl :: post) Hc eq_refl cl_nows).
    + apply (Y_str c [cl]).
Qed.

Lemma tail_cons a vs w2 w1 xe tl :
  ws w2 -> ws w1 -> (forall r, hdP nows (xe ++ r) = true) -> tl_ok tl ->
  elemP k A R a xe -> tailP vs tl -> tailP (a :: vs) (w2 ++ [44] ++ w1 ++ xe ++ tl).
Proof.
  intros Hw2 Hw1 Hxe Htl Hel IH c Hc wl post Hwl.
  destruct (IH c Hc wl post Hwl) as [A' _]. set (rest := tl ++ wl ++ cl :: post) in *.
  assert (Hmore : Y g R c (TEval (e_more k)) ([44] ++ w1 ++ xe ++ rest) rest [a]).
  { apply Y_grp. apply Y_seq.
    eapply (Y_seq_cons c _ _ _ _ _ _ _ [] [a]); [apply (Y_str c [44])| |].
    - apply YS_ws; [exact Hc|exact Hw1|apply Hxe].
    - apply Y_one. apply Y_elem; [exact Hel|exact Hc|]. apply Htl. apply follow_close; assumption. }
  assert (HS := YS_ws c w2 ([44] ++ w1 ++ xe ++ rest) Hc Hw2 eq_refl).
  rewrite <- !app_assoc. fold rest. split.
  - exact (YT_go c _ _ _ _ _ [a] vs HS Hmore A').
  - intros e1 r0 t1 H1. eapply Y_seq_cons; [exact H1|exact HS|].
    eapply Y_seq_end; [exact (Y_star_go c _ _ _ _ [a] vs Hmore A')| |apply (Y_str c [cl])].
    apply YS_ws; [exact Hc|exact Hwl|exact cl_nows].
Qed.

(* rule n is the choice between the empty and the non-empty form, in either order: exactly one
   of them applies, the other fails at the closing character resp. at the first element *)
Variables (n : N) (b : expr).
Hypothesis Ln : lookup g n = Some (mkrule n false KNormal b).
Hypothesis Hb : either b (e_empty op cl) (e_full k op cl).
Hypothesis Hn : negb (is_trivia_name n) = true.

Lemma coll_rule_empty c w pre post : c_atom c = NonAtomic -> ws w ->
  M g c (TEval (ERef n None)) pre (op :: w ++ [cl]) post
    [Pair n (lenN pre) (lenN (pre ++ op :: w ++ [cl])) [] None].
Proof.
  intros Hc Hw. apply (M_vref g c n false KNormal b pre _ post [] Ln (na_not_atomic c Hc)).
  assert (Hc1 := rctx_na c n false b Hn Hc). unfold rctx in Hc1.
  apply (M_either _ b _ _ pre _ post [] Hb).
  - apply M_seq. apply (Ms_cons g [op] w [cl] [] []).
    + apply M_str.
    + apply skipws; [exact Hc1|exact Hw|exact cl_nows].
    + apply Ms_one. apply M_str.
  - apply F_seq. eapply F_cast;
      [apply (Fs_later g [op] w (cl :: post) []);
        [apply M_str
        |apply skipws; [exact Hc1|exact Hw|exact cl_nows]
        |apply Fs_first; apply elem_close]
      |assoc].
Qed.

Lemma coll_rule_cons c a vs w1 xe tl wl d xe' input pre post :
  c_atom c = NonAtomic -> ws w1 -> ws wl ->
  xe = d :: xe' -> nows d = true -> (cl =? d) = false -> tl_ok tl ->
  elemP k A R a xe -> tailP vs tl ->
  input = pre ++ (op :: w1 ++ xe ++ tl ++ wl ++ [cl]) ++ post ->
  exists kids,
    M g c (TEval (ERef n None)) pre (op :: w1 ++ xe ++ tl ++ wl ++ [cl]) post
      [Pair n (lenN pre) (lenN (pre ++ op :: w1 ++ xe ++ tl ++ wl ++ [cl])) kids None] /\
    Forall2 R (a :: vs) (map (skel input) kids).
Proof.
  intros Hc Hw1 Hwl Exe Hd Hcd Htl Hel Htail Hin.
  assert (Hc1 := rctx_na c n false b Hn Hc). unfold rctx in Hc1. set (c1 := rule_ctx c _) in Hc1.
  assert (Hxe : hdP nows (xe ++ tl ++ wl ++ [cl] ++ post) = true) by (rewrite Exe; exact Hd).
  assert (HY : Y g R c1 (TSeq [EStr [op]; ERef k None; EStar (e_more k); EStr [cl]])
                 ((op :: w1 ++ xe ++ tl ++ wl ++ [cl]) ++ post) post (a :: vs)).
  { cbn [app]. rewrite <- !app_assoc.
    eapply (Y_seq_cons c1 _ _ _ _ _ _ _ [] (a :: vs));
      [apply (Y_str c1 [op])|exact (YS_ws c1 w1 _ Hc1 Hw1 Hxe)|].
    apply (proj2 (Htail c1 Hc1 wl post Hwl) _ _ [a]). apply Y_elem; [exact Hel|exact Hc1|].
    apply Htl. apply follow_close; assumption. }
  destruct (Y_M c1 _ _ _ _ HY input pre Hin) as [kids [HM HF]]. exists kids. split; [|exact HF].
  apply (M_vref g c n false KNormal b pre _ post _ Ln (na_not_atomic c Hc)). fold c1.
  apply (M_either _ b _ _ pre _ post _ (either_sym _ _ _ Hb)); [apply M_seq; exact HM|].
  apply F_seq. eapply F_cast;
    [apply (Fs_later g [op] w1 (xe ++ tl ++ wl ++ [cl] ++ post) []);
      [apply M_str
      |apply skipws; [exact Hc1|exact Hw1|exact Hxe]
      |apply Fs_first; apply F_str; rewrite Exe; cbn [app strip_prefix]; rewrite Hcd; reflexivity]
    |assoc].
Qed.

End Coll.

Definition value_completeP (nv narr nobj npair : N) (Rv Rc : jv -> sk -> Prop)
    (Rm : list jchar * jv -> sk -> Prop) : Prop :=
  (forall v x, renders v x -> wf_jv v = true ->
     elemP nv jv Rv v x /\
     match v with
     | JArr _ => elemP narr jv Rc v x
     | JObj _ => elemP nobj jv Rc v x
     | _ => True
     end) /\
  (forall vs tl, renders_tail vs tl -> forallb wf_jv vs = true -> tailP nv 93 jv Rv vs tl) /\
  (forall ms tl, renders_mtail ms tl -> forallb wfm ms = true ->
     tailP npair 125 (list jchar * jv) Rm ms tl).

Section Doc.
Variables nv narr nobj npair nstr : N.
Variables barr bobj : expr.
Hypothesis Larr : lookup g narr = Some (mkrule narr false KNormal barr).
Hypothesis Barr : either barr (e_empty 91 93) (e_full nv 91 93).
Hypothesis Lobj : lookup g nobj = Some (mkrule nobj false KNormal bobj).
Hypothesis Bobj : either bobj (e_empty 123 125) (e_full npair 123 125).
Hypothesis Lpair :
  lookup g npair = Some (mkrule npair false KNormal (ESeq [ERef nstr None; EStr [58]; ERef nv None])).
Hypothesis Tarr : negb (is_trivia_name narr) = true.
Hypothesis Tobj : negb (is_trivia_name nobj) = true.
Hypothesis Tpair : negb (is_trivia_name npair) = true.

(* the trees: Rv relates a value to what `value` yields, Rc an array or object to the pair of
   its rule, Rs a string to the pair of `string`, Rm a member to the pair of `pair` *)
Variables (Rv Rc : jv -> sk -> Prop) (Rs : list jchar -> sk -> Prop) (Rm : list jchar * jv -> sk -> Prop).
Hypothesis Karr : forall vs sl kids,
  renders (JArr vs) sl -> Forall2 Rv vs kids -> Rc (JArr vs) (SK narr sl kids).
Hypothesis Kobj : forall ms sl kids,
  renders (JObj ms) sl -> Forall2 Rm ms kids -> Rc (JObj ms) (SK nobj sl kids).
Hypothesis Kmem : forall k v wa wb x ks kv,
  ws wa -> ws wb -> renders v x -> Rs k ks -> Rv v kv ->
  Rm (k, v) (SK npair (member_text k wa wb x) [ks; kv]).

(* what the grammar at hand has to provide *)
Hypothesis Hstr : forall s c input pre post, forallb wf_jchar s = true -> c_atom c = NonAtomic ->
  input = pre ++ str_text s ++ post ->
  exists kids,
    M g c (TEval (ERef nstr None)) pre (str_text s) post
      [Pair nstr (lenN pre) (lenN (pre ++ str_text s)) kids None] /\
    Rs s (SK nstr (str_text s) (map (skel input) kids)).
Hypothesis Fstr : starts_with nstr (fun d => d =? 34).
Hypothesis Fval : forall c pre post, F g c (TEval (ERef nv None)) pre (93 :: post).
Hypothesis Hscalar : forall v x, renders v x -> wf_jv v = true -> ~ top_level v -> elemP nv jv Rv v x.
Hypothesis Hvarr : forall vs x', elemP narr jv Rc (JArr vs) (91 :: x') -> elemP nv jv Rv (JArr vs) (91 :: x').
Hypothesis Hvobj : forall ms x', elemP nobj jv Rc (JObj ms) (123 :: x') -> elemP nv jv Rv (JObj ms) (123 :: x').

Lemma Fpair c pre post : F g c (TEval (ERef npair None)) pre (125 :: post).
Proof.
  eapply F_ref; [exact Lpair|]. apply F_seq. apply Fs_first. apply Fstr. reflexivity.
Qed.

Lemma arr0_rule w : ws w -> elemP narr jv Rc (JArr []) (91 :: w ++ [93]).
Proof.
  intros Hw c Hc input pre post _ _. exists narr, []. split.
  - exact (coll_rule_empty nv 91 93 eq_refl Fval narr barr Larr Barr Tarr c w pre post Hc Hw).
  - apply Karr; [|constructor]. apply R_arr0. exact Hw.
Qed.

Lemma obj0_rule w : ws w -> elemP nobj jv Rc (JObj []) (123 :: w ++ [125]).
Proof.
  intros Hw c Hc input pre post _ _. exists nobj, []. split.
  - exact (coll_rule_empty npair 123 125 eq_refl Fpair nobj bobj Lobj Bobj Tobj c w pre post Hc Hw).
  - apply Kobj; [|constructor]. apply R_obj0. exact Hw.
Qed.

Lemma arr_rule v vs w1 x tl wl :
  ws w1 -> renders v x -> renders_tail vs tl -> ws wl -> wf_jv v = true ->
  elemP nv jv Rv v x -> tailP nv 93 jv Rv vs tl ->
  elemP narr jv Rc (JArr (v :: vs)) (91 :: w1 ++ x ++ tl ++ wl ++ [93]).
Proof.
  intros Hw1 Hr Hrt Hwl Hwf Hv Ht c Hc input pre post _ Hin.
  destruct (renders_nows v x Hr Hwf) as [d [x' [Ex [Hd1 Hd2]]]].
  destruct (coll_rule_cons nv 91 93 eq_refl jv Rv narr barr Larr Barr Tarr c v vs w1 x tl wl d x'
              input pre post Hc Hw1 Hwl Ex Hd1 Hd2 (renders_tail_ok _ _ Hrt) Hv Ht Hin)
    as [kids [HM HF]].
  exists narr, kids. split; [exact HM|]. apply Karr; [|exact HF]. apply R_arr; assumption.
Qed.

Lemma member_elem k v wa wb x :
  forallb wf_jchar k = true -> ws wa -> ws wb -> renders v x -> wf_jv v = true -> elemP nv jv Rv v x ->
  elemP npair (list jchar * jv) Rm (k, v) (member_text k wa wb x).
Proof.
  intros Hk Hwa Hwb Hr Hwf Hv c Hc input pre post Hf Hin.
  set (body := ESeq [ERef nstr None; EStr [58]; ERef nv None]) in *.
  set (c1 := rctx c npair false body).
  assert (Hc1 : c_atom c1 = NonAtomic) by (apply rctx_na; assumption).
  assert (Hinv : input = ((pre ++ str_text k ++ wa) ++ [58] ++ wb) ++ x ++ post).
  { rewrite Hin. unfold member_text. assoc. }
  destruct (Hv c1 Hc1 input _ post Hf Hinv) as [m [kv [HvM HvK]]].
  rewrite <- (skel_pair input _ _ _ m kv Hinv) in HvK. set (prv := Pair m _ _ kv None) in *.
  assert (Hins : input = pre ++ str_text k ++ wa ++ ([58] ++ wb ++ x) ++ post).
  { rewrite Hin. unfold member_text. assoc. }
  destruct (Hstr k c1 input pre _ Hk Hc1 Hins) as [ks [HsM HsK]].
  rewrite <- (skel_pair input _ _ _ nstr ks Hins) in HsK. set (prs := Pair nstr _ _ ks None) in *.
  exists npair, [prs; prv]. split.
  - apply (M_vref g c npair false KNormal body pre (member_text k wa wb x) post _ Lpair (na_not_atomic c Hc)).
    fold (rctx c npair false body). fold c1. unfold body, member_text. apply M_seq.
    apply (Ms_cons g (str_text k) wa ([58] ++ wb ++ x) [prs] [prv]).
    + exact HsM.
    + apply skipws; [exact Hc1|exact Hwa|reflexivity].
    + apply (Ms_cons g [58] wb x [] [prv]).
      * apply M_str.
      * apply skipws; [exact Hc1|exact Hwb|exact (renders_hd v x post Hr Hwf)].
      * apply Ms_one. exact HvM.
  - cbn [map]. apply Kmem; assumption.
Qed.

Lemma obj_rule k v ms w1 wa wb x tl wl :
  ws w1 -> ws wa -> ws wb -> renders v x -> renders_mtail ms tl -> ws wl ->
  forallb wf_jchar k = true -> wf_jv v = true ->
  elemP nv jv Rv v x -> tailP npair 125 (list jchar * jv) Rm ms tl ->
  elemP nobj jv Rc (JObj ((k, v) :: ms)) (123 :: w1 ++ member_text k wa wb x ++ tl ++ wl ++ [125]).
Proof.
  intros Hw1 Hwa Hwb Hr Hrt Hwl Hk Hwf Hv Ht c Hc input pre post _ Hin.
  destruct (coll_rule_cons npair 123 125 eq_refl _ Rm nobj bobj Lobj Bobj Tobj c (k, v) ms w1
              (member_text k wa wb x) tl wl 34 (chars_text k ++ [34] ++ wa ++ [58] ++ wb ++ x)
              input pre post Hc Hw1 Hwl) as [kids [HM HF]].
  - unfold member_text, str_text. assoc.
  - reflexivity.
  - reflexivity.
  - exact (renders_mtail_ok _ _ Hrt).
  - apply member_elem; assumption.
  - exact Ht.
  - exact Hin.
  - exists nobj, kids. split; [exact HM|]. apply Kobj; [|exact HF]. apply R_obj; assumption.
Qed.

(* every rendering of a well-formed value is parsed by `value`, arrays and objects also by their
   own rules *)
Theorem value_complete_gen : value_completeP nv narr nobj npair Rv Rc Rm.
Proof.
  apply renders_all.
  1-4: intros; (split; [|exact I]); apply Hscalar; [constructor|assumption|exact (fun H => H)].
  - intros w Hw _. pose proof (arr0_rule w Hw) as H. split; [apply Hvarr|]; exact H.
  - intros v vs w1 x tl wl Hw1 r IHv rt IHt Hwl Hwf.
    cbn [wf_jv forallb] in Hwf. apply andb_prop in Hwf. destruct Hwf as [Hwf1 Hwf2].
    assert (H : elemP narr jv Rc (JArr (v :: vs)) (91 :: w1 ++ x ++ tl ++ wl ++ [93])).
    { apply arr_rule; auto. apply IHv. exact Hwf1. }
    split; [apply Hvarr|]; exact H.
  - intros w Hw _. pose proof (obj0_rule w Hw) as H. split; [apply Hvobj|]; exact H.
  - intros k v ms w1 wa wb x tl wl Hw1 Hwa Hwb r IHv rt IHt Hwl Hwf.
    cbn [wf_jv forallb fst snd] in Hwf. apply andb_prop in Hwf. destruct Hwf as [Hwf1 Hwf2].
    apply andb_prop in Hwf1. destruct Hwf1 as [Hk Hv].
    assert (H : elemP nobj jv Rc (JObj ((k, v) :: ms))
                  (123 :: w1 ++ member_text k wa wb x ++ tl ++ wl ++ [125])).
    { apply obj_rule; auto. apply IHv. exact Hv. }
    split; [apply Hvobj|]; exact H.
  - intros _. apply tail_nil; reflexivity.
  - intros v vs w2 w1 x tl Hw2 Hw1 r IHv rt IHt Hwf.
    cbn [forallb] in Hwf. apply andb_prop in Hwf. destruct Hwf as [Hwf1 Hwf2].
    apply (tail_cons nv 93 eq_refl eq_refl jv Rv v vs w2 w1 x tl); auto.
    + intros r0. exact (renders_hd v x r0 r Hwf1).
    + exact (renders_tail_ok _ _ rt).
    + apply IHv. exact Hwf1.
  - intros _. apply tail_nil; reflexivity.
  - intros k v ms w2 w1 wa wb x tl Hw2 Hw1 Hwa Hwb r IHv rt IHt Hwf.
    cbn [forallb] in Hwf. apply andb_prop in Hwf. destruct Hwf as [Hwf1 Hwf2].
    unfold wfm in Hwf1. cbn [fst snd] in Hwf1. apply andb_prop in Hwf1. destruct Hwf1 as [Hk Hv].
    apply (tail_cons npair 125 eq_refl eq_refl _ Rm (k, v) ms w2 w1 (member_text k wa wb x) tl); auto.
    + exact (renders_mtail_ok _ _ rt).
    + apply member_elem; auto. apply IHv. exact Hv.
Qed.

End Doc.

(* SOI ~ top ~ EOI, called as the start rule on  w1 x w2: the tree is the one of `top` followed
   by EOI, inside a pair of the start rule unless it is silent *)
Lemma doc_complete nj sj nsoi etop A (R : A -> sk -> Prop) a w1 x w2 :
  lookup g nj = Some (mkrule nj sj KNormal (ESeq [ERef nsoi None; etop; ERef 3 None])) ->
  lookup g nsoi = Some (mkrule nsoi true KNormal ESoi) ->
  lookup g 3 = Some (mkrule 3 false KNormal EEoi) ->
  negb (is_trivia_name nj) = true ->
  ws w1 -> ws w2 -> hdP nows (x ++ w2) = true ->
  Y g R (rctx ctx0 nj sj (ESeq [ERef nsoi None; etop; ERef 3 None])) (TEval etop) (x ++ w2) w2 [a] ->
  exists f s tree top,
    parse g f nj (w1 ++ x ++ w2) 0 = Ok s tree /\ s_rest s = [] /\
    map (skel (w1 ++ x ++ w2)) tree =
      (if sj then [top; SK 3 [] []] else [SK nj (w1 ++ x ++ w2) [top; SK 3 [] []]]) /\
    R a top.
Proof.
  intros Lj Lsoi Leoi Hnj Hw1 Hw2 Hx Htop.
  set (text := w1 ++ x ++ w2) in *.
  set (body := ESeq [ERef nsoi None; etop; ERef 3 None]) in *.
  set (c1 := rctx ctx0 nj sj body) in *.
  assert (Hc1 : c_atom c1 = NonAtomic) by (apply rctx_na; [exact Hnj|reflexivity]).
  destruct (Y_M1 c1 _ x w2 a Htop text w1 eq_refl) as [pr [HM HK]].
  set (kids := [pr; Pair 3 (lenN text) (lenN text) [] None]).
  assert (H : M g ctx0 (TEval (ERef nj None)) [] text []
                (if sj then kids else [Pair nj 0 (lenN text) kids None])).
  { apply (M_vref g ctx0 nj sj KNormal body [] text [] kids Lj (na_not_atomic ctx0 eq_refl)).
    fold (rctx ctx0 nj sj body). fold c1. unfold body. apply M_seq.
    apply (Ms_cons g [] w1 (x ++ w2) [] kids).
    - eapply M_sref; [exact Lsoi|apply M_soi].
    - apply skipws; [exact Hc1|exact Hw1|rewrite app_nil_r; exact Hx].
    - eapply M_cast;
        [apply (Ms_cons g x w2 [] [pr] (tl kids));
          [eapply M_cast; [exact HM|assoc..]
          |apply skipws; [exact Hc1|exact Hw2|reflexivity]
          |apply Ms_one; eapply M_cast;
             [apply (M_vref g c1 3 false KNormal EEoi _ [] [] [] Leoi (na_not_atomic c1 Hc1)); apply M_eoi
             |assoc..]]
        |assoc..]. }
  unfold M, OKt in H. rewrite app_nil_r in H. destruct (H trk0) as [t' [f [E D]]].
  exists f. eexists. eexists. exists (skel text pr). split; [exact E|]. split; [reflexivity|].
  split; [|exact HK].
  assert (Hk : map (skel text) kids = [skel text pr; SK 3 [] []]).
  { cbn [map kids skel]. rewrite slice_empty. reflexivity. }
  destruct sj; [exact Hk|].
  cbn [map]. rewrite <- Hk. f_equal. exact (skel_pair text [] text [] nj kids (eq_sym (app_nil_r _))).
Qed.

End Struct.

Notation G := json_grammar.
Definition e_digit := ERef 10 None.
Definition e_int := EGrp (EAlt [EStr [48]; ESeq [ERef 9 None; EStar e_digit]]) None.
Definition e_frac := EOpt (EGrp (ESeq [EStr [46]; EStar e_digit]) None).
Definition e_exp := EOpt (EGrp (ESeq [ECIStr [101]; e_sign; EPlus e_digit]) None).
Definition number_body := ESeq [EOpt (EStr [45]); e_int; e_frac; e_exp].
Definition e_escs := EGrp (EAlt [EStr [34]; EStr [92]; EStr [47]; EStr [98]; EStr [102]; EStr [110]; EStr [114]; EStr [116]]) None.
Definition e_uni := EGrp (ESeq [EStr [117]; ERepN (ERef 13 None) 4]) None.
Definition char_body :=
  EAlt [ESeq [e_notq; ERef 12 None]; ESeq [EStr [92]; e_escs]; ESeq [EStr [92]; e_uni]].
Definition inner_body := EStar (ERef 11 None).
Definition value_body :=
  EAlt [ERef 6 None; ERef 7 None; ERef 15 None; ERef 8 None; ERef 17 None; ERef 16 None].
Definition array_body :=
  EAlt [ESeq [EStr [91]; EStr [93]]; ESeq [EStr [91]; ERef 18 None; EStar (e_more 18); EStr [93]]].
Definition object_body :=
  EAlt [ESeq [EStr [123]; EStr [125]]; ESeq [EStr [123]; ERef 19 None; EStar (e_more 19); EStr [125]]].
Definition pair_body := ESeq [ERef 15 None; EStr [58]; ERef 18 None].
Definition json_body := ESeq [ERef 5 None; EGrp (EAlt [ERef 6 None; ERef 7 None]) None; ERef 3 None].

Lemma lk_ws : lookup G 0 = Some (mkrule 0 true KNormal ws_body). Proof. reflexivity. Qed.
Lemma lk_eoi : lookup G 3 = Some (mkrule 3 false KNormal EEoi). Proof. reflexivity. Qed.
Lemma lk_json : lookup G 4 = Some (mkrule 4 true KNormal json_body). Proof. reflexivity. Qed.
Lemma lk_soi : lookup G 5 = Some (mkrule 5 true KNormal ESoi). Proof. reflexivity. Qed.
Lemma lk_object : lookup G 6 = Some (mkrule 6 false KNormal object_body). Proof. reflexivity. Qed.
Lemma lk_array : lookup G 7 = Some (mkrule 7 false KNormal array_body). Proof. reflexivity. Qed.
Lemma lk_number : lookup G 8 = Some (mkrule 8 false KAtomic number_body). Proof. reflexivity. Qed.
Lemma lk_nzdigit : lookup G 9 = Some (mkrule 9 true KNormal (ERange 49 57)). Proof. reflexivity. Qed.
Lemma lk_digit : lookup G 10 = Some (mkrule 10 true KNormal (ERange 48 57)). Proof. reflexivity. Qed.
Lemma lk_char : lookup G 11 = Some (mkrule 11 false KNormal char_body). Proof. reflexivity. Qed.
Lemma lk_any : lookup G 12 = Some (mkrule 12 true KNormal EAny). Proof. reflexivity. Qed.
Lemma lk_hex : lookup G 13 = Some (mkrule 13 true KNormal hex_body). Proof. reflexivity. Qed.
Lemma lk_inner : lookup G 14 = Some (mkrule 14 false KAtomic inner_body). Proof. reflexivity. Qed.
Lemma lk_string : lookup G 15 = Some (mkrule 15 false KCompound string_body). Proof. reflexivity. Qed.
Lemma lk_null : lookup G 16 = Some (mkrule 16 false KNormal (EStr null_text)). Proof. reflexivity. Qed.
Lemma lk_boolean : lookup G 17 = Some (mkrule 17 false KNormal boolean_body). Proof. reflexivity. Qed.
Lemma lk_value : lookup G 18 = Some (mkrule 18 true KNormal value_body). Proof. reflexivity. Qed.
Lemma lk_pair : lookup G 19 = Some (mkrule 19 false KNormal pair_body). Proof. reflexivity. Qed.
Lemma json_skip : skip_expr G = Some (EStar (ERef 0 None)). Proof. reflexivity. Qed.

Lemma M_int c i pre post : c_atom c <> NonAtomic -> wf_int i = true -> hdP nf0 post = true ->
  M G c (TEval e_int) pre i post [].
Proof. intros Hc H Hp. apply M_grp. exact (M_int_alt G 10 9 lk_digit lk_nzdigit c Hc i pre post H Hp). Qed.

(* json.pest lets "." be followed by any number of digits, RFC 8259 by at least one *)
Lemma M_frac c n pre post : c_atom c <> NonAtomic ->
  (forall ds, frac n = Some ds -> wf_digits ds = true) -> hdP nf1 post = true ->
  M G c (TEval e_frac) pre (frac_text n) post [].
Proof.
  intros Hc H Hp. destruct (nf1_parts post Hp) as [Hp0 Hp46].
  unfold frac_text, e_frac. destruct (frac n) as [ds|].
  - apply M_opt_some. apply M_grp. apply M_seq.
    apply (Ms_cons_a G [46] ds [] []); [exact Hc|apply M_str|].
    apply Ms_one. apply (M_digits G 10 lk_digit c Hc); [|exact Hp0].
    apply wf_digits_all. apply H. reflexivity.
  - apply M_opt_none. apply F_grp. apply F_seq. apply Fs_first. apply F_str. apply sp1. exact Hp46.
Qed.

Lemma M_exp c n pre post : c_atom c <> NonAtomic ->
  (forall x, expo n = Some x -> wf_expo x = true) -> hdP nf2 post = true ->
  M G c (TEval e_exp) pre (expo_text n) post [].
Proof.
  intros Hc H Hp. destruct (nf2_parts post Hp) as [Hp1 HpE]. destruct (nf1_parts post Hp1) as [Hp0 _].
  unfold expo_text, e_exp. destruct (expo n) as [[[e sg] ds]|].
  - specialize (H _ eq_refl). apply M_opt_some. apply M_grp. apply M_seq.
    apply (M_exp_seq G 10 lk_digit c Hc (ECIStr [101]) e sg ds pre post); [|exact H|exact Hp0].
    intros pre0 post0. apply M_cistr1. rewrite ascii_lower_e. exact (wf_expo_e e sg ds H).
  - apply M_opt_none. apply F_grp. apply F_seq. apply Fs_first. apply F_cistr.
    destruct post as [|d post]; [reflexivity|]. destruct HpE as [A B].
    cbn [strip_prefix_ci]. rewrite ascii_lower_e, A, B. reflexivity.
Qed.

Lemma M_number_body c n pre post : c_atom c <> NonAtomic -> wf_jnum n = true -> hdP nf2 post = true ->
  M G c (TEval number_body) pre (num_text n) post [].
Proof.
  intros Hc H Hp. destruct (wf_jnum_parts n H) as [Hi [Hf He]].
  pose proof (hd_expo n post He Hp) as H1. pose proof (hd_frac n _ H1) as H0.
  destruct (wf_int_head _ Hi) as [d [ds [Ei Hd]]].
  unfold number_body, num_text. apply M_seq.
  apply (Ms_cons_a G (sign_text n) _ [] []);
    [exact Hc|rewrite Ei; apply (M_minus G c n pre d _ Hd)|].
  apply (Ms_cons_a G (int_part n) _ [] []);
    [exact Hc|rewrite <- app_assoc; apply M_int; assumption|].
  apply (Ms_cons_a G (frac_text n) (expo_text n) [] []);
    [exact Hc|apply M_frac; assumption|].
  apply Ms_one. apply M_exp; assumption.
Qed.

(* the lexical fragments on their own: `number` and `string` accept every jnum / jchar list *)
Theorem number_complete : forall c n pre post, c_atom c = NonAtomic -> wf_jnum n = true ->
  hdP nf2 post = true ->
  M G c (TEval (ERef 8 None)) pre (num_text n) post
    [Pair 8 (lenN pre) (lenN (pre ++ num_text n)) [] None].
Proof.
  intros c n pre post Hc H Hp.
  apply (M_vref G c 8 false KAtomic number_body pre _ post [] lk_number (na_not_atomic c Hc)).
  apply M_number_body; [cbn; discriminate|exact H|exact Hp].
Qed.

Lemma number_starts : starts_with G 8 (fun d => is_digit d || (d =? 45)).
Proof.
  intros c pre r H. eapply F_ref; [exact lk_number|].
  apply (F_number_seq G _ e_int [e_frac; e_exp]); [cbn; discriminate| |exact H].
  apply rej_grp. exact (F_int_alt G 10 9 lk_nzdigit).
Qed.

Lemma M_char_body c pre j post : c_atom c <> NonAtomic -> wf_jchar j = true ->
  M G c (TEval char_body) pre (jchar_text j) post [].
Proof.
  intros Hc H. unfold char_body. apply M_alt.
  destruct j as [ch|ch|h1 h2 h3 h4]; cbn [jchar_text wf_jchar] in *.
  - apply andb_prop in H. destruct H as [H1 H2].
    apply negb_true_iff in H1. apply negb_true_iff in H2.
    apply Ma_first. apply M_seq. exact (M_plain_seq G c 12 pre ch post lk_any Hc H1 H2).
  - apply Ma_next.
    { apply F_seq. apply Fs_first. apply F_notq_fail. reflexivity. }
    apply Ma_first. apply M_seq. exact (M_esc_seq G c [] pre ch post Hc H).
  - apply Ma_next.
    { apply F_seq. apply Fs_first. apply F_notq_fail. reflexivity. }
    apply Ma_next.
    { apply F_seq. apply (Fs_later_a G [92] []); [exact Hc|apply M_str|].
      apply Fs_first. apply F_grp. apply F_alt.
      apply (Fa_lits G c esc_chars []); [reflexivity|apply Fa_nil]. }
    apply Ma_first. apply M_seq.
    apply (Ms_cons_a G [92] [117; h1; h2; h3; h4] [] []); [exact Hc|apply M_str|].
    apply Ms_one. apply M_grp. apply M_seq.
    exact (M_uni_seq G 13 lk_hex c h1 h2 h3 h4 _ post Hc H).
Qed.

(* `char` is a normal rule: inside the atomic `inner` it yields no pair *)
Lemma M_char c pre j post : c_atom c = Atomic -> wf_jchar j = true ->
  M G c (TEval (ERef 11 None)) pre (jchar_text j) post [].
Proof.
  intros Hc H. apply (M_aref G c 11 KNormal char_body pre _ post [] lk_char I Hc).
  apply M_char_body; [|exact H]. rewrite rule_ctx_atom_normal by reflexivity. apply atomic_not_na. exact Hc.
Qed.

Lemma F_char_quote c pre r : F G c (TEval (ERef 11 None)) pre (34 :: r).
Proof.
  eapply F_ref; [exact lk_char|]. apply F_alt.
  apply Fa_cons; [|apply Fa_cons; [|apply Fa_cons; [|apply Fa_nil]]]; apply F_seq; apply Fs_first.
  - apply F_notq_fail. reflexivity.
  - apply F_str. reflexivity.
  - apply F_str. reflexivity.
Qed.

Lemma MT_chars c : c_atom c = Atomic -> forall s pre post, forallb wf_jchar s = true ->
  M G c (TStar (ERef 11 None)) pre (chars_text s) (34 :: post) [].
Proof.
  intros Hc. induction s as [|j s IH]; intros pre post H; cbn [chars_text].
  - apply MT_stop_a; [apply atomic_not_na; exact Hc|apply F_char_quote].
  - cbn [forallb] in H. apply andb_prop in H. destruct H as [H1 H2].
    apply (MT_go_a G _ _ [] []); [apply atomic_not_na; exact Hc|apply M_char; assumption|apply IH; exact H2].
Qed.

Lemma M_inner_body c s pre post : c_atom c = Atomic -> forallb wf_jchar s = true ->
  M G c (TEval inner_body) pre (chars_text s) (34 :: post) [].
Proof.
  intros Hc H. unfold inner_body. destruct s as [|j s]; cbn [chars_text].
  - apply M_star_stop. apply F_char_quote.
  - cbn [forallb] in H. apply andb_prop in H. destruct H as [H1 H2].
    apply (M_star_go G _ _ [] []); [apply M_char; assumption|apply MT_chars; assumption].
Qed.

(* `string` is compound-atomic: its pair has the pair of the atomic `inner` as only child *)
Theorem string_complete : forall c s pre post, c_atom c = NonAtomic -> forallb wf_jchar s = true ->
  M G c (TEval (ERef 15 None)) pre (str_text s) post
    [Pair 15 (lenN pre) (lenN (pre ++ str_text s))
       [Pair 14 (lenN (pre ++ [34])) (lenN ((pre ++ [34]) ++ chars_text s)) [] None] None].
Proof.
  intros c s pre post Hc H.
  apply (M_vref G c 15 false KCompound string_body pre _ post _ lk_string (na_not_atomic c Hc)).
  apply M_seq. apply M_string_seq; [cbn; discriminate|].
  apply (M_vref G _ 14 false KAtomic inner_body _ _ _ [] lk_inner); [cbn; discriminate|].
  apply M_inner_body; [reflexivity|exact H].
Qed.

Lemma string_elem s c input pre post : forallb wf_jchar s = true -> c_atom c = NonAtomic ->
  input = pre ++ str_text s ++ post ->
  exists kids,
    M G c (TEval (ERef 15 None)) pre (str_text s) post
      [Pair 15 (lenN pre) (lenN (pre ++ str_text s)) kids None] /\
    SK 15 (str_text s) (map (skel input) kids) = str_sk s.
Proof.
  intros H Hc Hin. eexists. split; [apply string_complete; assumption|].
  cbn [map skel]. rewrite (slice_in input (pre ++ [34]) (chars_text s) ([34] ++ post)); [reflexivity|].
  rewrite Hin. unfold str_text. assoc.
Qed.

Definition value_tab : list (N * (N -> bool)) :=
  [(6, fun d => d =? 123); (7, fun d => d =? 91); (15, fun d => d =? 34);
   (8, fun d => is_digit d || (d =? 45)); (17, fun d => (d =? 116) || (d =? 102));
   (16, fun d => d =? 110)].

Lemma value_starts : Forall (fun a => starts_with G (fst a) (snd a)) value_tab.
Proof.
  repeat apply Forall_cons; [| | | | | |apply Forall_nil]; cbn [fst snd].
  - exact (coll_starts G 6 _ _ _ 19 123 125 lk_object (or_introl eq_refl)).
  - exact (coll_starts G 7 _ _ _ 18 91 93 lk_array (or_introl eq_refl)).
  - exact (rej_ref_lit G 15 _ _ 34 _ lk_string).
  - exact number_starts.
  - exact (boolean_starts G 17 _ _ lk_boolean).
  - exact (null_starts G 16 _ _ lk_null).
Qed.

Lemma value_of_rule n v d x' : pick value_tab d = Some n ->
  elemP G n jv msk v (d :: x') -> elemP G 18 jv msk v (d :: x').
Proof.
  exact (value_of G 18 true value_tab msk msk n v d x' lk_value eq_refl value_starts (fun _ _ _ H => H)).
Qed.

Lemma scalar_value v x : renders v x -> wf_jv v = true -> ~ top_level v -> elemP G 18 jv msk v x.
Proof.
  intros Hr Hw Ht. destruct Hr; try (exfalso; apply Ht; exact I).
  - apply (value_of_rule 16); [reflexivity|]. apply null_elem; [exact lk_null|apply K_null].
  - destruct b; apply (value_of_rule 17);
      (reflexivity || (apply bool_elem; [exact lk_boolean|apply K_bool])).
  - cbn [wf_jv] in Hw. destruct (num_head n Hw) as [d [x' [E Hd]]].
    assert (H : elemP G 8 jv msk (JNum n) (num_text n)).
    { apply leaf_elem; [|apply K_num]. intros c pre post Hc Hf.
      apply number_complete; [exact Hc|exact Hw|apply follow_nf2; exact Hf]. }
    rewrite E in *. apply (value_of_rule 8); [|exact H].
    destruct (num_start_facts d Hd) as [_ [_ [A1 [A2 A3]]]].
    unfold pick. cbn [find value_tab snd fst]. rewrite A1, A2, A3, Hd. reflexivity.
  - apply (value_of_rule 15); [reflexivity|]. intros c Hc input pre post _ Hin.
    destruct (string_elem s c input pre post Hw Hc Hin) as [kids [HM HK]].
    exists 15, kids. split; [exact HM|].
    change (msk (JStr s) (SK 15 (str_text s) (map (skel input) kids))). rewrite HK. apply K_str.
Qed.

Theorem value_complete_all : value_completeP G 18 7 6 19 msk msk mmsk.
Proof.
  apply (value_complete_gen G (MS_ws G lk_ws json_skip) 18 7 6 19 15 array_body object_body
           lk_array (or_introl eq_refl) lk_object (or_introl eq_refl) lk_pair eq_refl eq_refl eq_refl
           msk msk (fun s k => k = str_sk s) mmsk K_arr K_obj).
  - intros k v wa wb x ks kv Hwa Hwb Hr -> Hv. apply K_member; assumption.
  - exact string_elem.
  - exact (rej_ref_lit G 15 _ _ 34 _ lk_string).
  - intros c pre post. exact (value_fails G 18 true value_tab c pre 93 post lk_value value_starts eq_refl).
  - exact scalar_value.
  - intros vs x'. apply (value_of_rule 7). reflexivity.
  - intros ms x'. apply (value_of_rule 6). reflexivity.
Qed.

Definition e_top := EGrp (EAlt [ERef 6 None; ERef 7 None]) None.

(* COMPLETENESS: every RFC 8259 text whose top level is an array or an object is accepted by
   json.pest, the whole input is consumed, and the parse tree mirrors the document. *)
Theorem json_complete : forall v text, wf_jv v = true -> top_level v -> renders_doc v text ->
  exists f s tree,
    parse json_grammar f json_grammar_start text 0 = Ok s tree /\ s_rest s = [] /\ mirrors text v tree.
Proof.
  intros v text Hwf Htop Hdoc. destruct Hdoc as [v w1 x w2 Hw1 Hr Hw2].
  destruct (proj1 value_complete_all v x Hr Hwf) as [_ Hrule].
  destruct (doc_complete G (MS_ws G lk_ws json_skip) 4 true 5 e_top jv msk v w1 x w2 lk_json lk_soi lk_eoi
              eq_refl Hw1 Hw2 (renders_hd v x w2 Hr Hwf)) as [f [s [tree [top [E [Hs [Hk Ht]]]]]]].
  { (* the top-level choice  object | array *)
    apply Y_grp. apply Y_alt. set (c := rctx _ _ _ _).
    destruct Hr; try contradiction;
      pose proof (Y_elem G _ jv msk _ _ c w2 Hrule eq_refl (ws_follow w2 Hw2)) as HY.
    1, 2: apply Y_next; [intros pre; apply (Forall_inv value_starts); reflexivity|].
    all: apply Y_first; exact HY. }
  exists f, s, tree. split; [exact E|]. split; [exact Hs|]. exists top. split; assumption.
Qed.

(* Non-vacuity: a concrete document
      {"k\né" : [1, -2.5e+3 ,true,false , null, "x\\" ] ,"o":{ } , "e" : [<TAB>]}<LF>
   (preceded by one space) *)

Definition ex_num1 : jnum := {| neg := false; int_part := [49]; frac := None; expo := None |}.
Definition ex_num2 : jnum :=
  {| neg := true; int_part := [50]; frac := Some [53]; expo := Some (101, Some 43, [51]) |}.
Definition ex_key : list jchar := [JPlain 107; JEsc 110; JUni 48 48 101 57].
Definition ex_arr : jv :=
  JArr [JNum ex_num1; JNum ex_num2; JBool true; JBool false; JNull; JStr [JPlain 120; JEsc 92]].
Definition ex_v : jv :=
  JObj [(ex_key, ex_arr); ([JPlain 111], JObj []); ([JPlain 101], JArr [])].

Definition ex_text : text :=
  [32; 123; 34; 107; 92; 110; 92; 117; 48; 48; 101; 57; 34; 32; 58; 32; 91; 49; 44; 32; 45; 50; 46;
   53; 101; 43; 51; 32; 44; 116; 114; 117; 101; 44; 102; 97; 108; 115; 101; 32; 44; 32; 110; 117;
   108; 108; 44; 32; 34; 120; 92; 92; 34; 32; 93; 32; 44; 34; 111; 34; 58; 123; 32; 125; 32; 44; 32;
   34; 101; 34; 32; 58; 32; 91; 9; 93; 125; 10].

Example ex_wf : wf_jv ex_v = true.
Proof. vm_compute. reflexivity. Qed.

Definition ex_r_arr : renders ex_arr _ :=
  R_arr (JNum ex_num1) _ [] _ _ [32] eq_refl (R_num ex_num1)
    (RT_cons (JNum ex_num2) _ [] [32] _ _ eq_refl eq_refl (R_num ex_num2)
    (RT_cons (JBool true) _ [32] [] _ _ eq_refl eq_refl (R_bool true)
    (RT_cons (JBool false) _ [] [] _ _ eq_refl eq_refl (R_bool false)
    (RT_cons JNull _ [32] [32] _ _ eq_refl eq_refl R_null
    (RT_cons (JStr [JPlain 120; JEsc 92]) _ [] [32] _ _ eq_refl eq_refl (R_str _)
     RT_nil)))))
    eq_refl.

Definition ex_r : renders ex_v _ :=
  R_obj ex_key ex_arr _ [] [32] [32] _ _ [] eq_refl eq_refl eq_refl ex_r_arr
    (RM_cons [JPlain 111] (JObj []) _ [32] [] [] [] _ _ eq_refl eq_refl eq_refl eq_refl (R_obj0 [32] eq_refl)
    (RM_cons [JPlain 101] (JArr []) _ [32] [32] [32] [32] _ _ eq_refl eq_refl eq_refl eq_refl (R_arr0 [9] eq_refl)
     RM_nil))
    eq_refl.

(* membership in the rendering relation, checked by conversion against the literal text *)
Example ex_renders : renders_doc ex_v ex_text.
Proof. exact (R_doc ex_v [32] _ [10] eq_refl ex_r eq_refl). Qed.

Example ex_accepted : exists f s tree,
  parse json_grammar f json_grammar_start ex_text 0 = Ok s tree /\ s_rest s = [] /\
  mirrors ex_text ex_v tree.
Proof. exact (json_complete ex_v ex_text ex_wf I ex_renders). Qed.

(* running the reference semantics agrees *)
Definition ex_run : res := parse json_grammar 100 json_grammar_start ex_text 0.

Example ex_parse_ok :
  match ex_run with
  | Ok s tree =>
      s_rest s = [] /\ s_pos s = lenN ex_text /\
      map (skel ex_text) tree =
        [ SK 6 (firstn 76 (skipn 1 ex_text))
            [ SK 19 (firstn 53 (skipn 2 ex_text))
                [ str_sk ex_key;
                  SK 7 (firstn 39 (skipn 16 ex_text))
                    [ SK 8 (num_text ex_num1) [];
                      SK 8 (num_text ex_num2) [];
                      SK 17 (bool_text true) [];
                      SK 17 (bool_text false) [];
                      SK 16 null_text [];
                      str_sk [JPlain 120; JEsc 92] ] ];
              SK 19 (firstn 7 (skipn 57 ex_text)) [ str_sk [JPlain 111]; SK 6 [123; 32; 125] [] ];
              SK 19 (firstn 9 (skipn 67 ex_text)) [ str_sk [JPlain 101]; SK 7 [91; 9; 93] [] ] ];
          SK 3 [] [] ]
  | _ => False
  end.
Proof. vm_compute. repeat split. Qed.

Print Assumptions number_complete.
Print Assumptions string_complete.
Print Assumptions value_complete_all.
Print Assumptions ex_accepted.
Print Assumptions json_complete.
