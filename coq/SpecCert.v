(* SpecCert.v — computes the certificates (nullable rules, ranks) that SpecTerm.wf_grammar
   checks, by iterating to a fixpoint; nothing here is trusted: the result is only used as the
   argument of wf_grammar, whose soundness is SpecTerm.run_terminates. *)
From Coq Require Import List NArith.
Import ListNotations.
From PP Require Import Syntax Spec SpecTerm.

Definition lookup_tab (tab : list (N * bool)) (n : N) : bool :=
  match find (fun p => N.eqb (fst p) n) tab with Some (_, b) => b | None => false end.

(* least fixpoint of "a rule is nullable when its body is", reached after |g| rounds *)
Fixpoint nul_iter (k : nat) (g : grammar) (tab : list (N * bool)) : list (N * bool) :=
  match k with
  | O => tab
  | S k' => nul_iter k' g (map (fun r => (r_name r, nullable (lookup_tab tab) (r_body r))) g)
  end.
Definition auto_nul (g : grammar) : N -> bool :=
  lookup_tab (nul_iter (S (length g)) g (map (fun r => (r_name r, false)) g)).

Definition lookup_rank (tab : list (N * nat)) (n : N) : nat :=
  match find (fun p => N.eqb (fst p) n) tab with Some (_, b) => b | None => 0 end.

(* longest chain of left-position references, reached after |g| rounds when there is no
   left recursion (otherwise the ranks keep growing and wf_grammar rejects) *)
Fixpoint rank_iter (k : nat) (nul : N -> bool) (g : grammar) (tab : list (N * nat)) : list (N * nat) :=
  match k with
  | O => tab
  | S k' =>
      rank_iter k' nul g
        (map (fun r => (r_name r,
                        fold_right (fun m acc => Nat.max acc (S (lookup_rank tab m))) 0
                          (left_refs nul (may_skip r) (r_body r)))) g)
  end.
Definition auto_rank (g : grammar) : N -> nat :=
  lookup_rank (rank_iter (S (length g)) (auto_nul g) g (map (fun r => (r_name r, 0)) g)).

Definition wf_auto (g : grammar) : bool := wf_grammar (auto_nul g) (auto_rank g) g.

Theorem wf_auto_terminates : forall g, wf_auto g = true ->
  forall rule input k, exists f, parse g f rule input k <> Fuel.
Proof. intros g H. exact (parse_terminates (auto_nul g) (auto_rank g) g H). Qed.
