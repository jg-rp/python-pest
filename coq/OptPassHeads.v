(* OptPassHeads.v — each of the four modelled passes returns a table with the same rules in the same order, each with
   its name, silence and atomicity; only bodies are rewritten. *)
From Coq Require Import List.
Import ListNotations.
From PP Require Import Base Syntax SpecSyn OptPass OptPassProof OptPassCompose OptPassSilent OptPassSkip.

Theorem inline_silent_heads bi order g : same_heads g (pass_inline_silent bi order g).
Proof.
  apply (fold_left_inv (same_heads g)); [|apply heads_refl]. intros tbl n H.
  destruct (bi n); [exact H|]. destruct (lookup tbl n) as [r|]; [|exact H].
  eapply heads_trans; [exact H|apply update_heads].
Qed.

Theorem skip_heads bi any_id fuel : forall order g g', pass_skip bi any_id fuel order g = Some g' -> same_heads g g'.
Proof.
  intros order g.
  apply (fold_left_inv (fun acc => forall g', acc = Some g' -> same_heads g g')).
  - intros [tbl|] n H g' E; [|discriminate]. specialize (H tbl eq_refl).
    assert (Same : Some tbl = Some g' -> same_heads g g') by (intros K; inversion K; subst g'; exact H).
    destruct (bi n); [exact (Same E)|]. destruct (lookup tbl n) as [r|]; [|exact (Same E)].
    destruct (never_skips tbl r); [|exact (Same E)].
    destruct (map_td (skip1 bi any_id tbl) fuel (r_body r)) as [b|]; [|discriminate].
    inversion E; subst g'. eapply heads_trans; [exact H|apply update_heads].
  - intros g' E. inversion E; subst g'. apply heads_refl.
Qed.

Theorem unroll_pass_heads bi g : same_heads g (pass_unroll bi g).
Proof. apply unroll_heads. Qed.

Theorem inline_builtin_pass_heads bi fuel g g' : all_grammar count_ok g = true ->
  pass_inline_builtin bi fuel g = Some g' -> same_heads g g'.
Proof. intros C H. exact (proj1 (inline_heads_count bi fuel g g' C H)). Qed.
