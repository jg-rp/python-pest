(* OptMono.v — the translation validator is monotone in its fuel: what `ochk` accepts with fuel f it accepts with any
   larger fuel (`ochk_mono_le`; `ochk_grammar_mono` for one more unit on a whole table), and so do its two
   collectors (`lits` for skip-until, `flat_terms` for squashed choices). *)
From Coq Require Import List Bool.
Import ListNotations.
From PP Require Import Syntax Opt OptProof.
Open Scope nat_scope.

Lemma gather_mono {A} (col col' : expr -> option (list A)) :
  (forall x a, col x = Some a -> col' x = Some a) ->
  forall es ws, gather col es = Some ws -> gather col' es = Some ws.
Proof.
  intros IH. induction es as [|x es IHes]; intros ws K; [exact K|].
  cbn [gather fold_right] in K |- *. fold (gather col es) in K. fold (gather col' es).
  destruct (col x) as [a|] eqn:E; [|discriminate].
  destruct (gather col es) as [b|]; [|discriminate].
  rewrite (IH x a E), (IHes b eq_refl). exact K.
Qed.

Section Mono.
Variables g g' : grammar.

Lemma lits_mono : forall f e ws, lits g f e = Some ws -> lits g (S f) e = Some ws.
Proof.
  induction f as [|f IH]; intros e ws H; [discriminate|].
  destruct e; try discriminate; cbn [lits] in H |- *.
  - exact H.
  - destruct (lookup g n) as [r|]; [|destruct tag; discriminate].
    destruct tag; [discriminate|]. apply IH. exact H.
  - revert H. apply (gather_mono _ _ IH).
  - destruct tag; [discriminate|]. apply IH. exact H.
Qed.

Lemma flat_terms_mono : forall f e ts, flat_terms g f e = Some ts -> flat_terms g (S f) e = Some ts.
Proof.
  induction f as [|f IH]; intros e ts H; [discriminate|].
  destruct e; cbn [flat_terms] in H |- *; try exact H.
  - destruct tag; [exact H|]. destruct (lookup g n) as [r|]; [|exact H].
    destruct (plain_silent r); [|exact H]. apply IH. exact H.
  - revert H. apply (gather_mono _ _ IH).
Qed.

(* one level of the validator is `ostep` over the level below (OptProof.ochk_inv / ochk_of_ostep), and `ostep` is
   monotone in the relation and in the two collectors it is given *)
Lemma ochk_mono : forall f toff e e', ochk g g' f toff e e' = true -> ochk g g' (S f) toff e e' = true.
Proof.
  induction f as [|f IH]; intros toff e e' H; [discriminate|].
  apply ochk_of_ostep. apply ochk_inv in H. revert H.
  apply ostep_mono; [apply IH|apply lits_mono|apply flat_terms_mono].
Qed.

(* The proofs of the in-place passes carry "the current body of every rule is a validated image of its original
   body" through the table while different rules are validated at different depths: this is what lets them. *)
Lemma ochk_mono_le f1 f2 toff e e' : f1 <= f2 -> ochk g g' f1 toff e e' = true -> ochk g g' f2 toff e e' = true.
Proof. intros L H. induction L as [|m _ IH]; [exact H|]. apply ochk_mono. exact IH. Qed.

Lemma ochk_rule_mono f r' : ochk_rule g g' f r' = true -> ochk_rule g g' (S f) r' = true.
Proof.
  unfold ochk_rule. destruct (lookup g (r_name r')) as [r|]; [|discriminate]. intros H.
  apply andb_prop in H. destruct H as [H1 H2]. rewrite H1. apply ochk_mono. exact H2.
Qed.

Theorem ochk_grammar_mono f : ochk_grammar g g' f = true -> ochk_grammar g g' (S f) = true.
Proof.
  unfold ochk_grammar. intros H. apply andb_prop in H. destruct H as [H H3]. apply andb_prop in H. destruct H as [H1 H2].
  rewrite H2, H3, !andb_true_r. rewrite forallb_forall in *. intros r' I. specialize (H1 r' I).
  apply orb_prop in H1. destruct H1 as [H1|H1]; [rewrite H1; reflexivity|].
  rewrite (ochk_rule_mono f r' H1). apply orb_true_r.
Qed.
End Mono.
