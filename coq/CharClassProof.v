(* CharClassProof.v — what the sets of code points accept: a single range (range_mem), the merged
   class (class_merge_spec: the union of its parts, since the list is sorted by start before merging
   and two ranges that overlap or touch are one, range_join), the ASCII case variants
   (ascii_variants_spec). *)
From Coq Require Import List NArith Bool Lia.
Import ListNotations.
From PP Require Import Base CharClass.
Open Scope N_scope.

Lemma in_ranges_app c a b : in_ranges c (a ++ b) = in_ranges c a || in_ranges c b.
Proof.
  induction a as [|[lo hi] a IH]; cbn; [reflexivity|]. rewrite IH. apply orb_assoc.
Qed.

Lemma in_ranges_insert c r l : in_ranges c (insert_range r l) = in_ranges c (r :: l).
Proof.
  induction l as [|x l IH]; [reflexivity|]. cbn [insert_range].
  destruct (_ || _); [reflexivity|]. destruct r as [a b], x as [lo hi]. cbn in *.
  rewrite IH. cbn. rewrite !orb_assoc. f_equal. apply orb_comm.
Qed.

Lemma in_ranges_sort c l : in_ranges c (sort_ranges l) = in_ranges c l.
Proof.
  induction l as [|[a b] l IH]; [reflexivity|]. cbn [sort_ranges fold_right].
  rewrite in_ranges_insert. cbn. f_equal. exact IH.
Qed.

Fixpoint sorted_from (lo : N) (l : list (N * N)) : Prop :=
  match l with [] => True | (s, e) :: l' => lo <= s /\ sorted_from s l' end.

Lemma sorted_weaken lo lo' l : lo' <= lo -> sorted_from lo l -> sorted_from lo' l.
Proof. destruct l as [|[s e] l]; [trivial|]. cbn. intros H [A B]. split; [lia|exact B]. Qed.

Lemma insert_sorted : forall l r lo, sorted_from lo l -> lo <= fst r -> sorted_from lo (insert_range r l).
Proof.
  induction l as [|[s e] l IH]; intros [a b] lo H L; cbn [insert_range fst snd] in *.
  - split; [exact L|exact I].
  - destruct H as [H1 H2]. destruct (N.ltb_spec a s) as [Ha|Ha]; cbn [orb].
    + repeat split; [exact L|lia|exact H2].
    + destruct ((a =? s) && (b <=? e)) eqn:E.
      * apply andb_prop in E. destruct E as [E _]. apply N.eqb_eq in E.
        repeat split; [exact L|lia|exact H2].
      * split; [exact H1|]. apply IH; [exact H2|exact Ha].
Qed.

Lemma sort_sorted l : sorted_from 0 (sort_ranges l).
Proof.
  induction l as [|r l IH]; [exact I|]. cbn [sort_ranges fold_right]. apply insert_sorted; [exact IH|lia].
Qed.

Lemma range_join ls le s e c : ls <= s -> s <= le + 1 ->
  (ls <=? c) && (c <=? N.max le e) = (ls <=? c) && (c <=? le) || (s <=? c) && (c <=? e).
Proof. intros H1 H2. apply eq_true_iff_eq. rewrite orb_true_iff, !andb_true_iff, !N.leb_le. lia. Qed.

Lemma range_empty s e c : e < s -> (s <=? c) && (c <=? e) = false.
Proof. intros H. apply andb_false_iff. rewrite !N.leb_gt. lia. Qed.

(* the invariant of the merge: acc's head starts no later than what follows *)
Lemma merge_acc_mem : forall l acc c,
  sorted_from (match acc with (ls, _) :: _ => ls | [] => 0 end) l ->
  in_ranges c (merge_acc acc l) = in_ranges c (rev acc ++ l).
Proof.
  induction l as [|[s e] l IH]; intros acc c Hs; cbn [merge_acc].
  - rewrite app_nil_r. reflexivity.
  - destruct Hs as [H1 H2]. destruct acc as [|[ls le] acc'].
    + apply IH, H2.
    + destruct (le + 1 <? s) eqn:E.
      * rewrite IH by exact H2. cbn [rev]. rewrite <- app_assoc. reflexivity.
      * apply N.ltb_ge in E. rewrite IH by (eapply sorted_weaken; [exact H1|exact H2]).
        cbn [rev]. rewrite <- !app_assoc, !(in_ranges_app c (rev acc')). f_equal.
        cbn [app in_ranges]. rewrite (range_join ls le s e c H1 E). symmetry. apply orb_assoc.
Qed.

Lemma in_ranges_filter_nonempty c l : in_ranges c (filter nonempty_range l) = in_ranges c l.
Proof.
  induction l as [|[s e] l IH]; [reflexivity|]. cbn [filter]. unfold nonempty_range at 1. cbn [fst snd].
  destruct (N.leb_spec s e); cbn [in_ranges]; rewrite IH; [reflexivity|].
  rewrite range_empty by assumption. reflexivity.
Qed.

Theorem merge_ranges_mem c l : in_ranges c (merge_ranges l) = in_ranges c l.
Proof.
  unfold merge_ranges. rewrite merge_acc_mem by apply sort_sorted.
  cbn [rev app]. rewrite in_ranges_sort. apply in_ranges_filter_nonempty.
Qed.

Lemma memN_filter c p l : memN c (filter p l) = memN c l && p c.
Proof.
  induction l as [|x l IH]; [reflexivity|]. cbn [filter].
  destruct (p x) eqn:E; cbn [memN]; rewrite IH.
  - destruct (N.eqb_spec c x) as [->|]; cbn; [rewrite E; reflexivity|reflexivity].
  - destruct (N.eqb_spec c x) as [->|]; cbn; [rewrite E; rewrite andb_false_r; reflexivity|reflexivity].
Qed.

Lemma in_ranges_existsb c l : in_ranges c l = existsb (in_range_sym c) l.
Proof.
  induction l as [|[lo hi] l IH]; [reflexivity|]. cbn [existsb]. unfold in_range_sym at 1.
  cbn [in_ranges]. rewrite orb_false_r. f_equal. exact IH.
Qed.

(* C12; in_range_sym: a range written the wrong way round is empty *)
Theorem class_merge_spec singles ranges c :
  class_mem (optimize_char_class singles ranges) c =
  memN c singles || existsb (in_range_sym c) ranges.
Proof.
  unfold class_mem, optimize_char_class. cbn [fst snd].
  rewrite memN_filter, merge_ranges_mem, <- in_ranges_existsb.
  destruct (memN c singles), (in_ranges c ranges); reflexivity.
Qed.

Theorem range_mem lo hi c : in_ranges c [(lo, hi)] = (lo <=? c) && (c <=? hi).
Proof. cbn. apply orb_false_r. Qed.

Lemma between_spec lo hi c : reflect (lo <= c <= hi) ((lo <=? c) && (c <=? hi)).
Proof. destruct (N.leb_spec0 lo c), (N.leb_spec0 c hi); constructor; lia. Qed.

Theorem ascii_variants_spec c d :
  memN d (ascii_variants c) = N.eqb (ascii_lower d) (ascii_lower c) && (N.eqb d c || (d <? 128) && (c <? 128)).
Proof.
  apply eq_true_iff_eq.
  rewrite andb_true_iff, orb_true_iff, andb_true_iff, !N.eqb_eq, !N.ltb_lt.
  unfold ascii_variants, ascii_lower.
  (* c is an upper-case letter, a lower-case letter, or neither; d is upper-case or not *)
  destruct (between_spec 65 90 c); [|destruct (between_spec 97 122 c)];
    destruct (between_spec 65 90 d); cbn [memN];
    rewrite ?orb_false_r, ?orb_true_iff, !N.eqb_eq; lia.
Qed.
