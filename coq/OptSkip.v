From Coq Require Import List ZArith.
Import ListNotations.
From PP Require Import Syntax Spec SpecSyn SpecLaws SpecEquiv Opt OptProof.
Local Open Scope nat_scope.

(* OptSkip.v — validation of the fused rule SKIP that the optimizer adds to the optimised table:
   one call of SKIP (failure recording suppressed) is pest's implicit skipping of the ORIGINAL
   grammar.  `ochk_grammar` ignores the rule named SKIP_ID; `ochk_skip` checks it. *)

Definition star_body (e : expr) : option expr :=
  match e with EStar b => Some b | _ => None end.

Lemma star_body_inv e b : star_body e = Some b -> e = EStar b.
Proof. destruct e; cbn; intros H; try discriminate. inversion H; reflexivity. Qed.

(* the rule `rt` of g (WHITESPACE or COMMENT) is silent with no other modifier and its body is
   related to b' by the validator, implicit trivia being off (its body is matched atomically) *)
Definition trivia_rule_ok (g g' : grammar) (fuel : nat) (rt : rule) (b' : expr) : bool :=
  r_silent rt && kind_eqb (r_kind rt) KNormal && ochk g g' fuel true (r_body rt) b'.

Lemma trivia_rule_ok_inv g g' fuel rt b' : trivia_rule_ok g g' fuel rt b' = true ->
  r_silent rt = true /\ r_kind rt = KNormal /\ ochk g g' fuel true (r_body rt) b' = true.
Proof.
  unfold trivia_rule_ok. intros H. apply andb_prop in H. destruct H as [H H3].
  apply andb_prop in H. destruct H as [H1 H2]. apply kind_eqb_eq in H2.
  repeat split; assumption.
Qed.

(* Optimizer._optimize_skip_rule: with a silent COMMENT alone, SKIP is Repeat(comment.expression) (C); with a silent
   WHITESPACE alone whose body is a squashable choice, it is the OptimizedChoiceRepeat of that choice (W); with
   both trivia rules or none, no SKIP rule is made. *)
Definition ochk_skip (g g' : grammar) (fuel : nat) : bool :=
  match lookup g' SKIP_ID with
  | None => true
  | Some r' =>
      r_silent r' && kind_eqb (r_kind r') KAtomic &&
      match star_body (r_body r') with
      | Some b' =>
          match lookup g WS_ID, lookup g CM_ID with
          | None, Some rc => trivia_rule_ok g g' fuel rc b'       (* (C) *)
          | Some rw, None => trivia_rule_ok g g' fuel rw b'       (* (W) *)
          | _, _ => false
          end
      | None => false
      end
  end.

(* where SKIP is called: failure recording suppressed *)
Definition sup_ctx (c : ctx) : ctx :=
  {| c_atom := c_atom c; c_rule := c_rule c; c_neg := c_neg c; c_sup := true |}.

(* star congruence over two grammars, two iterated expressions and two contexts in which implicit trivia is
   off: SpecEquiv.sim_star between exactly those contexts *)

Section StarCong.
Variables ga gb : grammar.
Variables ea eb : expr.
Variables ca cb : ctx.
Hypothesis Hca : c_atom ca <> NonAtomic.
Hypothesis Hcb : c_atom cb <> NonAtomic.
Hypothesis Hit : forall s s' x, same_core s s' -> evals ga ca ea s x ->
  exists x', evals gb cb eb s' x' /\ req x' x.

Lemma skips_id_b s : skips gb cb s (Ok s []).
Proof. exists 0. split; [apply atomic_no_trivia; exact Hcb|discriminate]. Qed.

Lemma star_cong s s' r : same_core s s' -> evals ga ca (EStar ea) s r ->
  exists r', evals gb cb (EStar eb) s' r' /\ req r' r.
Proof.
  intros Hs [f [H D]]. subst r. set (P := fun c c' : ctx => c = ca /\ c' = cb).
  assert (T : trivia_sim ga gb P f).
  { intros f0 c c' s0 s0' _ [-> ->] Hs0 _. rewrite (atomic_no_trivia ga _ ca s0 Hca).
    exists (Ok s0' []). split; [apply skips_id_b|auto with req]. }
  assert (B : task_sim ga gb P f (TEval ea) (TEval eb)).
  { intros f0 c c' s0 s0' _ [-> ->] Hs0 D0.
    exact (Hit s0 s0' _ (same_core_sym _ _ Hs0) (ex_intro _ f0 (conj eq_refl D0))). }
  exact (sim_star ga gb P f ea eb T B f ca cb s s' (le_S _ _ (le_n f)) (conj eq_refl eq_refl)
           (same_core_sym _ _ Hs) D).
Qed.

End StarCong.

(* OptProof's simulation, fuel-free, for bodies matched atomically; used in both directions *)
Lemma esim_atomic ga gb e e' : (forall f, esim ga gb f true e e') ->
  forall c c' s s' r, c_atom c = Atomic -> c_atom c' = Atomic -> same_core s s' ->
    evals ga c e s r -> exists r', evals gb c' e' s' r' /\ req r' r.
Proof.
  intros F c c' s s' r A A' Hs [f [H D]]. subst r.
  apply (F f f c c' s s' (le_n f)); [split; [intros _; left; rewrite A; discriminate|congruence]| |exact D].
  apply same_core_sym. exact Hs.
Qed.

Section Skip.
Variables g g' : grammar.
Variable fuel : nat.
Hypothesis HG : ochk_grammar g g' fuel = true.

Section OneTrivia.
Variable n : N.                      (* WS_ID or CM_ID: the only trivia rule of g *)
Variables rt r' : rule.
Variable b' : expr.
Variable fo : nat.
Hypothesis Hn : is_trivia_name n = true.
Hypothesis Hse : skip_expr g = Some (EStar (ERef n None)).
Hypothesis Lt : lookup g n = Some rt.
Hypothesis St : r_silent rt = true.
Hypothesis Kt : r_kind rt = KNormal.
Hypothesis Lk : lookup g' SKIP_ID = Some r'.
Hypothesis Ss : r_silent r' = true.
Hypothesis Ks : r_kind r' = KAtomic.
Hypothesis Bs : r_body r' = EStar b'.
Hypothesis Hb : ochk g g' fo true (r_body rt) b' = true.
Variable c : ctx.
Hypothesis Hc : c_atom c = NonAtomic.

Notation cK := (skip_ctx c).                       (* where pest runs `skip` *)
Notation cA := (rule_ctx (sup_ctx c) r').          (* where the body of SKIP runs *)

Lemma cK_atom : c_atom cK <> NonAtomic.
Proof. cbn. discriminate. Qed.

Lemma cA_atomic : c_atom cA = Atomic.
Proof. unfold rule_ctx, body_atom. cbn [c_atom]. rewrite Ks. reflexivity. Qed.

Lemma cA_atom : c_atom cA <> NonAtomic.
Proof. rewrite cA_atomic. discriminate. Qed.

(* the body of WHITESPACE / COMMENT runs in an Atomic context because of its name *)
Lemma body_ctx_atomic c0 : c_atom (rule_ctx c0 rt) = Atomic.
Proof.
  unfold rule_ctx, body_atom. cbn [c_atom].
  rewrite Kt, (lookup_name _ _ _ Lt), Hn. reflexivity.
Qed.

Lemma skips_is_star s r : skips g c s r <-> evals g cK (EStar (ERef n None)) s r.
Proof.
  split; intros [f [H D]]; exists f; (split; [|exact D]);
    unfold skip_with in *; rewrite Hc, Hse in *; exact H.
Qed.

Lemma it_fwd : forall s s' x, same_core s s' -> evals g cK (ERef n None) s x ->
  exists x', evals g' cA b' s' x' /\ req x' x.
Proof.
  intros s s' x Hs H. apply (silent_call_evals g cK n rt s x Lt St) in H.
  apply (esim_atomic g g' (r_body rt) b' (fun f => proj1 (sound_at_all g g' fuel HG f fo true _ _ Hb))
           (rule_ctx cK rt) cA s s' x); [apply body_ctx_atomic|apply cA_atomic|exact Hs|exact H].
Qed.

Lemma it_bwd : forall s s' x, same_core s s' -> evals g' cA b' s x ->
  exists x', evals g cK (ERef n None) s' x' /\ req x' x.
Proof.
  intros s s' x Hs H.
  destruct (esim_atomic g' g b' (r_body rt) (fun f => proj2 (sound_at_all g g' fuel HG f fo true _ _ Hb))
              cA (rule_ctx cK rt) s s' x cA_atomic (body_ctx_atomic cK) Hs H) as [x' [H1 R]].
  exists x'. split; [|exact R].
  apply (silent_call_evals g cK n rt s' x' Lt St). exact H1.
Qed.

Lemma one_trivia s :
  (forall r, skips g c s r ->
     exists r1, evals g' (sup_ctx c) (ERef SKIP_ID None) s r1 /\ req r1 r) /\
  (forall r1, evals g' (sup_ctx c) (ERef SKIP_ID None) s r1 ->
     exists r, skips g c s r /\ req r r1).
Proof.
  split.
  - intros r Hr. apply skips_is_star in Hr.
    destruct (star_cong g g' (ERef n None) b' cK cA cK_atom cA_atom it_fwd s s r
                (same_core_refl _) Hr) as [r1 [H1 R1]].
    exists r1. split; [|exact R1].
    apply (silent_call_evals g' (sup_ctx c) SKIP_ID r' s r1 Lk Ss). rewrite Bs. exact H1.
  - intros r1 H1.
    apply (silent_call_evals g' (sup_ctx c) SKIP_ID r' s r1 Lk Ss) in H1. rewrite Bs in H1.
    destruct (star_cong g' g b' (ERef n None) cA cK cA_atom cK_atom it_bwd s s r1
                (same_core_refl _) H1) as [r [Hr R]].
    exists r. split; [apply skips_is_star; exact Hr|exact R].
Qed.

End OneTrivia.
End Skip.

Theorem skip_rule_sound : forall g g' fuel, ochk_grammar g g' fuel = true -> ochk_skip g g' fuel = true ->
  defined_in g' SKIP_ID = true ->
  forall c s, c_atom c = NonAtomic ->
    (forall r, skips g c s r -> exists r', evals g' (sup_ctx c) (ERef SKIP_ID None) s r' /\ req r' r) /\
    (forall r', evals g' (sup_ctx c) (ERef SKIP_ID None) s r' -> exists r, skips g c s r /\ req r r').
Proof.
  intros g g' fuel HG HS HD c s Hc.
  unfold ochk_skip in HS. unfold defined_in in HD.
  destruct (lookup g' SKIP_ID) as [r'|] eqn:Lk; [|discriminate].
  apply andb_prop in HS. destruct HS as [HS HB].
  apply andb_prop in HS. destruct HS as [Ss Ks]. apply kind_eqb_eq in Ks.
  destruct (star_body (r_body r')) as [b'|] eqn:Bs; [|discriminate].
  apply star_body_inv in Bs.
  destruct (lookup g WS_ID) as [rw|] eqn:LW; destruct (lookup g CM_ID) as [rc|] eqn:LC;
    try discriminate.
  - (* (W) *)
    destruct (trivia_rule_ok_inv _ _ _ _ _ HB) as [St [Kt Hb]].
    apply (one_trivia g g' fuel HG WS_ID rw r' b' fuel); try assumption; try reflexivity.
    unfold skip_expr, has_ws, has_cm. rewrite LW, LC. reflexivity.
  - (* (C) *)
    destruct (trivia_rule_ok_inv _ _ _ _ _ HB) as [St [Kt Hb]].
    apply (one_trivia g g' fuel HG CM_ID rc r' b' fuel); try assumption; try reflexivity.
    unfold skip_expr, has_ws, has_cm. rewrite LW, LC. reflexivity.
Qed.

(* the two shapes are accepted, a SKIP rule that iterates something else is rejected *)

Section Examples.
Local Open Scope N_scope.
Let Rl n sil k b := {| r_name := n; r_silent := sil; r_kind := k; r_body := b |}.

Let g1 : grammar :=
  [Rl 0 true KNormal (EAlt [EStr [32]; EStr [9]]);
   Rl 4 false KNormal (ESeq [EPlus (EGrp (EAlt [ERange 122 97; EStr [120]; ERange 51 52; ERange 98 98]) None); EOpt (EStr [33])])].
Let g1' : grammar :=
  [Rl 2 true KAtomic (EStar (EAlt [ECls [(9,9);(32,32)]])); Rl 0 true KNormal (EAlt [ECls [(9,9);(32,32)]]);
   Rl 4 false KNormal (ESeq [ESeq [EAlt [ECls [(51,52);(98,98);(120,120)]]; EStar (EGrp (EAlt [ECls [(51,52);(98,98);(120,120)]]) None)]; EOpt (EStr [33])])].

Let g2 : grammar :=
  [Rl 1 true KNormal (ESeq [EStr [35]; EStar (EGrp (ESeq [ENot (EStr [35]); ERef 4 None]) None); EStr [35]]);
   Rl 4 true KNormal EAny; Rl 5 false KNormal (EStr [97])].
Let g2' : grammar :=
  [Rl 5 false KNormal (EStr [97]); Rl 4 true KNormal EAny;
   Rl 2 true KAtomic (EStar (ESeq [EStr [35]; ESkipUntil [[35]]; EStr [35]]));
   Rl 1 true KNormal (ESeq [EStr [35]; ESkipUntil [[35]]; EStr [35]])].

(* (W) *)
Example s1 : ochk_grammar g1 g1' 200%nat = true /\ ochk_skip g1 g1' 200%nat = true.
Proof. vm_compute. split; reflexivity. Qed.

(* (C) *)
Example s2 : ochk_grammar g2 g2' 200%nat = true /\ ochk_skip g2 g2' 200%nat = true.
Proof. vm_compute. split; reflexivity. Qed.

(* no SKIP rule: nothing to check *)
Example s3 : ochk_skip g1 (tl g1') 200%nat = true.
Proof. vm_compute. reflexivity. Qed.

(* SKIP iterates something else than the squashed WHITESPACE: the tab is lost *)
Example sn1 :
  ochk_skip g1 (Rl 2 true KAtomic (EStar (EAlt [ECls [(32,32)]])) :: tl g1') 200%nat = false.
Proof. vm_compute. reflexivity. Qed.

(* SKIP iterates something else than COMMENT: the closing delimiter is missing *)
Example sn2 :
  ochk_skip g2 [Rl 5 false KNormal (EStr [97]); Rl 4 true KNormal EAny;
                Rl 2 true KAtomic (EStar (ESeq [EStr [35]; ESkipUntil [[35]]]));
                Rl 1 true KNormal (ESeq [EStr [35]; ESkipUntil [[35]]; EStr [35]])] 200%nat = false.
Proof. vm_compute. reflexivity. Qed.

(* SKIP is not a star / not atomic / not silent *)
Example sn3 :
  ochk_skip g1 (Rl 2 true KAtomic (EAlt [ECls [(9,9);(32,32)]]) :: tl g1') 200%nat = false.
Proof. vm_compute. reflexivity. Qed.
Example sn4 :
  ochk_skip g1 (Rl 2 true KNormal (EStar (EAlt [ECls [(9,9);(32,32)]])) :: tl g1') 200%nat = false.
Proof. vm_compute. reflexivity. Qed.
Example sn5 :
  ochk_skip g1 (Rl 2 false KAtomic (EStar (EAlt [ECls [(9,9);(32,32)]])) :: tl g1') 200%nat = false.
Proof. vm_compute. reflexivity. Qed.

(* both trivia rules defined in g: no SKIP rule may exist *)
Example sn6 :
  ochk_skip (Rl 1 true KNormal (EStr [35]) :: g1) g1' 200%nat = false.
Proof. vm_compute. reflexivity. Qed.

End Examples.

Print Assumptions skip_rule_sound.
