(* Totality and error position of the front-end model (Front.v).  One lemma per model function:
       invariant on the input state -> good POST (f fuel state)        (given enough fuel)
   where `good` says: the result is Ok and satisfies POST, or a syntax error at a position
   <= L (the grammar length); never a crash, never OutOfFuel.  Fuel is measured by the remaining length. *)
From Coq Require Import List ZArith Bool Lia.
From PP Require Import Base Front.
Import ListNotations.
Close Scope N_scope.
Open Scope nat_scope.

Lemma bind_assoc : forall A B C (m : res A) (k : A -> res B) (h : B -> res C),
  bind (bind m k) h = bind m (fun a => bind (k a) h).
Proof. intros A B C [a|p|c|] k h; reflexivity. Qed.
Lemma bind_ext : forall A B (m : res A) (k k' : A -> res B),
  (forall a, m = Ok a -> k a = k' a) -> bind m k = bind m k'.
Proof. intros A B [a|p|c|] k k' H; simpl; auto. Qed.

(* The four functions of the expression parser (parse_expression, infix_loop, parse_infix_expression,
   infix_run), each as a functional of the calls it makes.  What is proved of a functional holds of the
   function and of any other parser that unfolds to it (InfixEquiv.v: parse_expression_old and
   infix_loop_old). *)

Section FUNCTIONALS.
  Variable eof : token.
  Variable builtins : list (text * text).
  Notation current := (current eof).
  Notation pnext := (pnext eof).
  Notation cur_kind_is := (cur_kind_is eof).
  Notation eat := (eat eof).
  Notation rexpr := (res (pexpr * list token)).

  Definition primary (PE : N -> list token -> rexpr) (tag : option text) (ts : list token) : rexpr :=
    let token := current ts in
    let left_kind := tk_kind token in
    if kind_eqb left_kind K_STRING then Ok (PStr (tk_value (fst (pnext ts))), snd (pnext ts))
    else if kind_eqb left_kind K_STRING_CI then
      Ok (PCIStr (tk_value (fst (pnext ts))), snd (pnext ts))
    else if kind_eqb left_kind K_LPAREN then
      let* '(e, ts) := PE PRECEDENCE_LOWEST (tl ts) in
      let* '(_, ts) := eat K_RPAREN ts in
      Ok (PGrp e tag, ts)
    else if kind_eqb left_kind K_IDENTIFIER then
      let '(t, ts) := pnext ts in
      let name := tk_value t in
      if negb (text_eqb name [69;79;73]%N)
         && match lookup name builtins with Some _ => true | None => false end then
        match lookup name builtins with
        | Some rule_name => Ok (PRef rule_name None, ts)
        | None => Crash C_KEY
        end
      else Ok (PRef name tag, ts)
    else if kind_eqb left_kind K_PUSH_LITERAL then
      let* '(_, ts) := eat K_LPAREN (tl ts) in
      let* '(t, ts) := eat K_STRING ts in
      let* '(_, ts) := eat K_RPAREN ts in
      Ok (PPushLit (tk_value t) tag, ts)
    else if kind_eqb left_kind K_PUSH then
      let* '(_, ts) := eat K_LPAREN (tl ts) in
      let* '(e, ts) := PE PRECEDENCE_LOWEST ts in
      let* '(_, ts) := eat K_RPAREN ts in
      Ok (PPush e tag, ts)
    else if kind_eqb left_kind K_PEEK then parse_peek_expression eof tag (tl ts)
    else if kind_eqb left_kind K_PEEK_ALL then Ok (PPeekAll tag, tl ts)
    else if kind_eqb left_kind K_POP then Ok (PPop tag, tl ts)
    else if kind_eqb left_kind K_DROP then Ok (PDrop tag, tl ts)
    else if kind_eqb left_kind K_POP_ALL then Ok (PPopAll tag, tl ts)
    else if kind_eqb left_kind K_CHAR then
      let* '(t, ts) := eat K_CHAR ts in
      let* start := unescape_string (slice_1_m1 (tk_value t)) (tk_start token) in
      let* '(_, ts) := eat K_RANGE_OP ts in
      let* '(stop_token, ts) := eat K_CHAR ts in
      let* stop := unescape_string (slice_1_m1 (tk_value stop_token)) (tk_start token) in
      Ok (PRange start stop tag, ts)
    else if kind_eqb left_kind K_POSITIVE_PREDICATE then
      let* '(e, ts) := PE PRECEDENCE_PREFIX (tl ts) in
      Ok (PAnd e tag, ts)
    else if kind_eqb left_kind K_NEGATIVE_PREDICATE then
      let* '(e, ts) := PE PRECEDENCE_PREFIX (tl ts) in
      Ok (PNot e tag, ts)
    else Syn (tk_start token).

  (* parse_expression up to its infix loop; K is what follows (the loop, or nothing) *)
  Definition pe_body {B} (PE : N -> list token -> rexpr) (K : pexpr -> list token -> res B)
    (ts : list token) : res B :=
    let ts := if cur_kind_is ts K_CHOICE_OP then snd (pnext ts) else ts in
    let* '(tag, ts) :=
      (if cur_kind_is ts K_TAG then
         let '(t, ts) := pnext ts in
         let* '(_, ts) := eat K_ASSIGN_OP ts in
         Ok (Some (tl (tk_value t)), ts)
       else Ok (None, ts)) in
    let* '(left_, ts) := primary PE tag ts in
    let* '(left_, ts) := postfix_loop eof (S (length ts)) left_ ts in
    K left_ ts.

  Definition prim_body (PE : N -> list token -> rexpr) : list token -> rexpr :=
    pe_body PE (fun l t => Ok (l, t)).

  Lemma pe_body_bind : forall B PE (K : pexpr -> list token -> res B) ts,
    pe_body PE K ts = let* '(l, t) := prim_body PE ts in K l t.
  Proof.
    intros. unfold prim_body, pe_body.
    rewrite bind_assoc. apply bind_ext. intros [tag ts2] _.
    rewrite bind_assoc. apply bind_ext. intros [x ts3] _.
    rewrite bind_assoc. apply bind_ext. intros [l ts4] _. reflexivity.
  Qed.

  Definition infix_stops (p : N) (ts : list token) : bool :=
    let k := tk_kind (current ts) in
    kind_eqb k K_EOI || (precedence_of k <? p)%N || negb (is_infix k).
  Definition infix_node (k : kind) (ops : list pexpr) : pexpr :=
    if kind_eqb k K_CHOICE_OP then PAlt ops else PSeq ops.

  Definition il_body (PI : pexpr -> list token -> rexpr) (IL : N -> pexpr -> list token -> rexpr)
    (p : N) (l : pexpr) (ts : list token) : rexpr :=
    if infix_stops p ts then Ok (l, ts) else let* '(l', t) := PI l ts in IL p l' t.

  Definition pi_body (RUN : kind -> N -> list pexpr -> list token -> res (list pexpr * list token))
    (l : pexpr) (ts : list token) : rexpr :=
    let k := tk_kind (current ts) in
    if negb (is_infix k) then Syn (tk_start (current ts))
    else let* '(ops, t) := RUN k (precedence_of k + 1)%N [l] ts in Ok (infix_node k ops, t).

  Definition run_body (PE : N -> list token -> rexpr)
    (RUN : kind -> N -> list pexpr -> list token -> res (list pexpr * list token))
    (k : kind) (p : N) (ro : list pexpr) (ts : list token) : res (list pexpr * list token) :=
    if cur_kind_is ts k then let* '(e, t) := PE p (tl ts) in RUN k p (e :: ro) t
    else Ok (rev ro, ts).

  Notation PE_n := (parse_expression eof builtins).
  Notation IL_n := (infix_loop eof builtins).
  Notation PI_n := (parse_infix_expression eof builtins).
  Notation RUN_n := (infix_run eof builtins).

  Lemma parse_expression_S : forall f p ts, PE_n (S f) p ts = pe_body (PE_n f) (IL_n f p) ts.
  Proof. reflexivity. Qed.
  Lemma infix_loop_S : forall f p l ts, IL_n (S f) p l ts = il_body (PI_n f) (IL_n f) p l ts.
  Proof. reflexivity. Qed.
  Lemma parse_infix_expression_S : forall f l ts, PI_n (S f) l ts = pi_body (RUN_n f) l ts.
  Proof.
    intros. unfold pi_body, infix_node. cbn [parse_infix_expression]. fold (RUN_n f).
    destruct (negb _); [reflexivity|]. apply bind_ext. intros [ops t] _.
    destruct (kind_eqb _ _); reflexivity.
  Qed.
  Lemma infix_run_S : forall f k p ro ts,
    RUN_n (S f) k p ro ts = run_body (PE_n f) (RUN_n f) k p ro ts.
  Proof. reflexivity. Qed.
End FUNCTIONALS.

Lemma Forall_tl : forall A (P : A -> Prop) l, Forall P l -> Forall P (tl l).
Proof. intros A P [|x l] H; simpl; auto. inversion H; auto. Qed.

Lemma lor_lt_pow2 : forall a b n, (a < 2 ^ n -> b < 2 ^ n -> N.lor a b < 2 ^ n)%N.
Proof.
  intros a b n Ha Hb.
  destruct (N.eq_dec a 0) as [->|Na]; [rewrite N.lor_0_l; auto|].
  destruct (N.eq_dec b 0) as [->|Nb]; [rewrite N.lor_0_r; auto|].
  assert (0 < N.lor a b)%N.
  { destruct (N.eq_dec (N.lor a b) 0) as [E|E]; [|lia].
    apply N.lor_eq_0_iff in E. lia. }
  apply N.log2_lt_pow2; auto. rewrite N.log2_lor.
  apply N.max_lub_lt; apply N.log2_lt_pow2; lia.
Qed.

Lemma in_range : forall lo hi d, ((lo <=? d) && (d <=? hi))%N = true -> (lo <= d <= hi)%N.
Proof. intros lo hi d H. apply andb_prop in H as [H1 H2]. apply N.leb_le in H1, H2. auto. Qed.

Lemma parse_hex_loop_bound : forall ds acc ts n k,
  parse_hex_loop ds acc ts = Ok n -> (acc < 2 ^ k)%N ->
  (n < 2 ^ (k + 4 * N.of_nat (length ds)))%N.
Proof.
  induction ds as [|d r IH]; intros acc ts n k H Hacc.
  - simpl in H. inversion H; subst. simpl. rewrite N.add_0_r. auto.
  - simpl in H.
    replace (k + 4 * N.of_nat (length (d :: r)))%N with ((k + 4) + 4 * N.of_nat (length r))%N
      by (simpl length; lia).
    (* whichever digit it is, a value below 16 is or-ed into the shifted accumulator *)
    assert (Hstep : forall x, (x < 16)%N ->
              parse_hex_loop r (N.lor (N.shiftl acc 4) x) ts = Ok n ->
              (n < 2 ^ (k + 4 + 4 * N.of_nat (length r)))%N).
    { intros x Hx Hr. apply (IH _ _ _ _ Hr). apply lor_lt_pow2.
      - rewrite N.shiftl_mul_pow2, N.pow_add_r. apply N.mul_lt_mono_pos_r; [reflexivity|auto].
      - apply N.lt_le_trans with (2 ^ 4)%N; [exact Hx|]. apply N.pow_le_mono_r; lia. }
    destruct (_ && _) eqn:E1 in H; [apply in_range in E1; apply (Hstep (d - 48)%N); [lia|exact H]|].
    destruct (_ && _) eqn:E2 in H; [apply in_range in E2; apply (Hstep (d - 65 + 10)%N); [lia|exact H]|].
    destruct (_ && _) eqn:E3 in H; [apply in_range in E3; apply (Hstep (d - 97 + 10)%N); [lia|exact H]|].
    discriminate.
Qed.

Lemma parse_hex_digits_2 : forall digits ts n,
  length digits = 2 -> parse_hex_digits digits ts = Ok n -> (n < 256)%N.
Proof.
  intros digits ts n Hlen H. unfold parse_hex_digits in H.
  apply (parse_hex_loop_bound _ _ _ _ 0%N) in H; [|reflexivity].
  rewrite Hlen in H. exact H.
Qed.

Definition re_total (re : regex) : Prop := forall s, re s <> MFuel.
Definition re_pos (re : regex) : Prop := forall s n, re s = Match n -> 1 <= n /\ s <> [].

Ltac break_match :=
  repeat match goal with
         | |- context [match ?x with _ => _ end] => destruct x eqn:?
         end.

Lemma re_lit_total : forall lit, re_total (re_lit lit).
Proof. intros lit s. unfold re_lit. break_match; discriminate. Qed.
Lemma re_lit_pos : forall c lit, re_pos (re_lit (c :: lit)).
Proof.
  intros c lit s n. unfold re_lit. destruct (strip_prefix (c :: lit) s) eqn:E; [|discriminate].
  intros H; inversion H; subst. split; [simpl; lia|]. intros ->. simpl in E. discriminate.
Qed.
Lemma re_keyword_total : forall lit, re_total (re_keyword lit).
Proof. intros lit s. unfold re_keyword. break_match; discriminate. Qed.
Lemma re_identifier_total : re_total re_identifier.
Proof. intros s. unfold re_identifier. break_match; discriminate. Qed.
Lemma re_tag_total : re_total re_tag.
Proof.
  intros s. unfold re_tag. destruct s; [discriminate|]. destruct (n =? 35)%N; [|discriminate].
  pose proof (re_identifier_total s). destruct (re_identifier s); congruence.
Qed.
Lemma re_number_total : re_total re_number.
Proof. intros s. unfold re_number. break_match; discriminate. Qed.
Lemma re_number_pos : re_pos re_number.
Proof.
  intros s n. unfold re_number. destruct (count_while is_digit s) eqn:E; [discriminate|].
  intros H; inversion H; subst. split; [lia|]. intros ->. discriminate.
Qed.
Lemma re_integer_total : re_total re_integer.
Proof. intros s. unfold re_integer. break_match; discriminate. Qed.
Lemma re_modifier_total : re_total re_modifier.
Proof. intros s. unfold re_modifier. break_match; discriminate. Qed.
Lemma re_whitespace_total : re_total re_whitespace.
Proof. intros s. unfold re_whitespace. break_match; discriminate. Qed.
Lemma re_whitespace_pos : re_pos re_whitespace.
Proof.
  intros s n. unfold re_whitespace. destruct (count_ws s) eqn:E; [discriminate|].
  intros H; inversion H; subst. split; [lia|]. intros ->. discriminate.
Qed.
Lemma re_line_comment_total : re_total re_line_comment.
Proof. intros s. unfold re_line_comment. break_match; discriminate. Qed.
Lemma re_line_comment_pos : re_pos re_line_comment.
Proof.
  intros s n. unfold re_line_comment. destruct s as [|a [|b r]]; try discriminate.
  break_match; try discriminate. intros H; inversion H; subst. split; [lia|discriminate].
Qed.
Lemma re_char_total : re_total re_char.
Proof. intros s. unfold re_char. break_match; discriminate. Qed.

Lemma bc_body_total : forall fuel s, length s < fuel -> bc_body fuel s <> MFuel.
Proof.
  induction fuel as [|fuel IH]; intros s Hf; [lia|].
  simpl. destruct s as [|c r]; [discriminate|]. simpl in Hf.
  destruct ((c =? 42)%N && _); [discriminate|].
  destruct ((c =? 47)%N && _).
  - assert (H1 : length (tl r) < fuel) by (destruct r; simpl in *; lia).
    pose proof (IH (tl r) H1) as G1.
    destruct (bc_body fuel (tl r)) as [n| |] eqn:E1; try congruence.
    assert (H2 : length (skipn n (tl r)) < fuel) by (rewrite skipn_length; lia).
    pose proof (IH _ H2) as G2.
    destruct (bc_body fuel (skipn n (tl r))); congruence.
  - assert (H1 : length r < fuel) by lia.
    pose proof (IH r H1) as G1. destruct (bc_body fuel r); congruence.
Qed.
Lemma re_block_comment_total : re_total re_block_comment.
Proof.
  intros s. unfold re_block_comment. destruct s as [|a [|b r]]; try discriminate.
  destruct ((a =? 47)%N && (b =? 42)%N); [|discriminate].
  pose proof (bc_body_total (S (length r)) r (Nat.lt_succ_diag_r _)).
  destruct (bc_body (S (length r)) r); congruence.
Qed.
Lemma re_block_comment_pos : re_pos re_block_comment.
Proof.
  intros s n. unfold re_block_comment. destruct s as [|a [|b r]]; try discriminate.
  destruct ((a =? 47)%N && (b =? 42)%N); [|discriminate].
  destruct (bc_body (S (length r)) r); try discriminate.
  intros H; inversion H; subst. split; [lia|discriminate].
Qed.

#[local] Hint Resolve re_identifier_total re_tag_total re_number_total re_integer_total re_modifier_total
  re_char_total : core.
(* the literals and keywords are named constants: `apply` sees through the names *)
#[local] Hint Extern 1 (re_total _) => apply re_lit_total : core.
#[local] Hint Extern 1 (re_total _) => apply re_keyword_total : core.

Lemma kind_eqb_eq : forall a b, kind_eqb a b = true -> a = b.
Proof.
  (* kind_code has a left inverse: the kinds listed by code (K_EOI stands at the codes not in use) *)
  set (kinds := [K_EOI; K_EOI; K_EOI; K_ERROR; K_EOI; K_COMMENT_TEXT; K_IDENTIFIER; K_ASSIGN_OP;
    K_MODIFIER; K_LBRACE; K_RBRACE; K_CHOICE_OP; K_SEQUENCE_OP; K_TAG; K_POSITIVE_PREDICATE;
    K_NEGATIVE_PREDICATE; K_EOI; K_CHAR; K_COMMA; K_EOI; K_DROP; K_GRAMMAR_DOC; K_LBRACKET; K_LPAREN;
    K_PEEK; K_PEEK_ALL; K_REPEAT_ONCE_OP; K_POP; K_POP_ALL; K_PUSH; K_PUSH_LITERAL; K_OPTION_OP;
    K_RANGE_OP; K_RBRACKET; K_RPAREN; K_RULE_DOC; K_REPEAT_OP; K_STRING; K_STRING_CI; K_NUMBER;
    K_INTEGER]).
  assert (inv : forall k, nth (N.to_nat (kind_code k)) kinds K_EOI = k) by (destruct k; reflexivity).
  intros a b H. apply N.eqb_eq in H. rewrite <- (inv a), <- (inv b), H. reflexivity.
Qed.

Lemma kind_eqb_refl : forall k, kind_eqb k k = true.
Proof. intros; unfold kind_eqb; apply N.eqb_refl. Qed.

Lemma infix_not_eoi : forall k, is_infix k = true -> k <> K_EOI.
Proof. intros k H E; subst; discriminate. Qed.

Section GOOD.
  Variable L : nat.      (* length of the grammar *)

  Definition good {A} (P : A -> Prop) (r : res A) : Prop :=
    match r with
    | Ok a => P a
    | Syn p => p <= L
    | Crash k => False
    | OutOfFuel => False
    end.

  Lemma good_bind : forall A B (P : A -> Prop) (Q : B -> Prop) (m : res A) (f : A -> res B),
    good P m -> (forall a, P a -> good Q (f a)) -> good Q (bind m f).
  Proof. intros A B P Q [a|p|k|] f H1 H2; simpl in *; auto. Qed.

  Lemma good_weaken : forall A (P Q : A -> Prop) (r : res A),
    good P r -> (forall a, P a -> Q a) -> good Q r.
  Proof. intros A P Q [a|p|k|] H1 H2; simpl in *; auto. Qed.

  Lemma good_if : forall (b : bool) A (P : A -> Prop) (x y : res A),
    good P x -> good P y -> good P (if b then x else y).
  Proof. intros [|] A P x y Hx Hy; assumption. Qed.

  Lemma good_not_fuel : forall A (P : A -> Prop) (r : res A), good P r -> r <> OutOfFuel.
  Proof. intros A P r H E. rewrite E in H. exact H. Qed.
  Lemma good_ok : forall A (P : A -> Prop) (r : res A) a, good P r -> r = Ok a -> P a.
  Proof. intros A P r a H E. rewrite E in H. exact H. Qed.

  Lemma parse_hex_digits_good : forall digits ts,
    ts <= L -> good (fun _ => True) (parse_hex_digits digits ts).
  Proof.
    intros digits ts Hts. unfold parse_hex_digits.
    generalize 0%N. induction digits as [|d r IH]; intros acc; simpl; auto.
    destruct ((48 <=? d)%N && (d <=? 57)%N); [apply IH|].
    destruct ((65 <=? d)%N && (d <=? 70)%N); [apply IH|].
    destruct ((97 <=? d)%N && (d <=? 102)%N); [apply IH|]. simpl; auto.
  Qed.

  Lemma chr_checked_good : forall cp ts, ts <= L -> good (fun _ => True) (chr_checked cp ts).
  Proof.
    intros cp ts Hts. unfold chr_checked.
    destruct ((1114111 <? cp)%N) eqn:E1; simpl; auto.
    destruct ((55296 <=? cp)%N && (cp <=? 57343)%N); simpl; auto.
    unfold py_chr. apply N.ltb_ge in E1. apply N.leb_le in E1. rewrite E1. simpl; auto.
  Qed.

  Lemma decode_hex_char_good : forall value index ts,
    ts <= L -> good (fun r => index <= snd r) (decode_hex_char value index ts).
  Proof.
    intros value index ts Hts. unfold decode_hex_char.
    destruct (negb _); simpl; auto.
    destruct (find_from _ _ _); simpl; auto.
    destruct (negb _); simpl; auto.
    eapply good_bind; [apply parse_hex_digits_good; auto|].
    intros cp _. simpl. lia.
  Qed.

  Lemma decode_escape_sequence_good : forall value index ts,
    ts <= L -> good (fun r => index <= snd r) (decode_escape_sequence value index ts).
  Proof.
    intros value index ts Hts. unfold decode_escape_sequence.
    destruct (nth_error value index) as [ch|]; simpl; auto.
    do 5 (apply good_if; [simpl; auto|]).
    apply good_if; [|apply good_if; [|simpl; auto]].
    - (* \x *)
      destruct (negb _) eqn:Hlen; [simpl; auto|].
      apply negb_false_iff in Hlen. apply Nat.eqb_eq in Hlen.
      pose proof (parse_hex_digits_good (slice value (index + 1) (index + 3)) ts Hts) as G.
      destruct (parse_hex_digits _ ts) eqn:E; simpl; try exact G.
      apply parse_hex_digits_2 in E; auto. unfold py_chr.
      assert (Hle : (a <=? 1114111)%N = true) by (apply N.leb_le; lia).
      rewrite Hle. simpl. lia.
    - (* \u *)
      eapply good_bind; [apply decode_hex_char_good; auto|].
      intros [cp i] Hi. simpl in Hi.
      eapply good_bind; [apply chr_checked_good; auto|].
      intros c _. simpl. exact Hi.
  Qed.

  Lemma unescape_loop_good : forall fuel value index acc ts,
    ts <= L -> length value - index < fuel ->
    good (fun _ => True) (unescape_loop fuel value index acc ts).
  Proof.
    induction fuel as [|fuel IH]; intros value index acc ts Hts Hf; [lia|].
    simpl. destruct (negb (index <? length value)) eqn:E; simpl; auto.
    apply negb_false_iff, Nat.ltb_lt in E.
    destruct (nth_error value index) as [ch|] eqn:En.
    2:{ apply nth_error_None in En. lia. }
    destruct (ch =? 92)%N.
    - eapply good_bind; [apply decode_escape_sequence_good; auto|].
      intros [c i] Hi. simpl in Hi. apply IH; auto. lia.
    - apply IH; auto. lia.
  Qed.

  Lemma unescape_string_good : forall value ts,
    ts <= L -> good (fun _ => True) (unescape_string value ts).
  Proof. intros. unfold unescape_string. apply unescape_loop_good; auto. lia. Qed.

  Definition cur_ok (c : cur) : Prop := ix c + length (suf c) = L.
  Definition tok_ok (t : token) : Prop := tk_start t <= L.
  Definition sc_ok (s : sc) : Prop :=
    cur_ok (sc_start s) /\ cur_ok (sc_pos s) /\ sc_len s = L /\ Forall tok_ok (sc_rtokens s).

  Definition post (s : sc) (s' : sc) : Prop := sc_ok s' /\ rem s' <= rem s.
  Definition postb (s : sc) (a : bool * sc) : Prop := sc_ok (snd a) /\ rem (snd a) <= rem s.
  Definition postb_lt (s : sc) (a : bool * sc) : Prop :=
    sc_ok (snd a) /\ rem (snd a) <= rem s /\ (fst a = true -> rem (snd a) < rem s).

  Definition ts_ok (ts : list token) : Prop := Forall tok_ok ts.
  Definition ppost {A} (ts : list token) (a : A * list token) : Prop :=
    ts_ok (snd a) /\ length (snd a) <= length ts.
  Definition ppost_lt {A} (ts : list token) (a : A * list token) : Prop :=
    ts_ok (snd a) /\ length (snd a) < length ts.

  (* `step lem as x H`: the computation begins with a call that `lem` covers; what it returns is
     named x and its postcondition H (side conditions of `lem` that `eauto` leaves come first).
     `wk lem`: it is one such call, and its postcondition gives the one wanted by `lia`; what is left
     is the side condition of `lem` that `eauto` could not close: the bound on the fuel or the measure.
     `fin`: it has returned, and the facts collected give the postcondition. *)
  Tactic Notation "step" constr(lem) "as" simple_intropattern(x) simple_intropattern(H) :=
    eapply good_bind; [eapply lem; eauto|intros x H; cbn [fst snd] in *].
  Ltac wk lem :=
    eapply good_weaken;
      [eapply lem; eauto
      |intros ? [? ?]; unfold post, postb, ppost, ppost_lt in *; cbn [fst snd] in *; split; [auto|lia]].
  Ltac fin := unfold post, postb, ppost, ppost_lt; cbn [good fst snd]; split; [auto|try lia].

  (* Sequencing in the scanner.  s0 is where the function started, s where it stands now
     (`rem s <= rem s0`); after a call from s the rest goes on from a state that again lies after s0.
     `seq lem as s1` (a call returning a state) and `seqb lem as b s1` (one returning a flag too) take
     the newest pair of hypotheses `O : sc_ok s`, `R : rem s <= rem _` in the context, whatever their
     names (a `step` before must have left that pair), and replace it by the pair about s1 under the
     names of the old one. *)
  Lemma seq_post : forall B (Q : B -> Prop) s0 s (m : res sc) (f : sc -> res B),
    good (post s) m -> rem s <= rem s0 ->
    (forall s', sc_ok s' -> rem s' <= rem s0 -> good Q (f s')) -> good Q (bind m f).
  Proof.
    intros B Q s0 s m f Hm R Hf. eapply good_bind; [exact Hm|].
    intros s' [O' R']. apply Hf; [exact O'|]. exact (Nat.le_trans _ _ _ R' R).
  Qed.
  Lemma seq_postb : forall B (Q : B -> Prop) s0 s (m : res (bool * sc)) (f : bool * sc -> res B),
    good (postb s) m -> rem s <= rem s0 ->
    (forall b s', sc_ok s' -> rem s' <= rem s0 -> good Q (f (b, s'))) -> good Q (bind m f).
  Proof.
    intros B Q s0 s m f Hm R Hf. eapply good_bind; [exact Hm|].
    intros [b s'] [O' R']. apply Hf; [exact O'|]. exact (Nat.le_trans _ _ _ R' R).
  Qed.
  Tactic Notation "seq" constr(lem) "as" ident(x) :=
    lazymatch goal with R : rem ?s <= rem _, O : sc_ok ?s |- _ =>
      eapply seq_post; [eapply lem; eauto|exact R|clear O R; intros x O R] end.
  Tactic Notation "seqb" constr(lem) "as" ident(b) ident(x) :=
    lazymatch goal with R : rem ?s <= rem _, O : sc_ok ?s |- _ =>
      eapply seq_postb; [eapply lem; eauto|exact R|clear O R; intros b x O R; cbv beta iota] end.

  Lemma cur_incr_ok : forall c, cur_ok c -> suf c <> [] -> cur_ok (cur_incr c).
  Proof.
    intros [i [|x r]] H1 Hne; unfold cur_ok in *; simpl in *; [congruence|lia].
  Qed.
  Lemma cur_adv_ok : forall n c, cur_ok c -> cur_ok (cur_adv n c).
  Proof.
    intros n [i t] H1. unfold cur_ok in *; simpl in *.
    assert (length t = length (firstn n t) + length (skipn n t))
      by (rewrite <- app_length, firstn_skipn; auto). lia.
  Qed.
  Lemma cur_adv_le : forall n c, length (suf (cur_adv n c)) <= length (suf c).
  Proof. intros. simpl. rewrite skipn_length. lia. Qed.
  Lemma cur_adv_lt : forall n c, 1 <= n -> suf c <> [] ->
    length (suf (cur_adv n c)) < length (suf c).
  Proof.
    intros n c Hn Hne. simpl. rewrite skipn_length. destruct (suf c); [congruence|cbn [length]; lia].
  Qed.

  Lemma sc_ok_set_pos : forall s c, sc_ok s -> cur_ok c -> sc_ok (set_pos s c).
  Proof. intros s c (H1 & H2 & H3 & H4) Hc. unfold sc_ok; simpl; tauto. Qed.
  Lemma sc_ok_set_start : forall s c, sc_ok s -> cur_ok c -> sc_ok (set_start s c).
  Proof. intros s c (H1 & H2 & H3 & H4) Hc. unfold sc_ok; simpl; tauto. Qed.
  Lemma sc_ok_pos : forall s, sc_ok s -> cur_ok (sc_pos s).
  Proof. intros s H; apply H. Qed.
  Lemma sc_ok_start : forall s, sc_ok s -> cur_ok (sc_start s).
  Proof. intros s H; apply H. Qed.
  Lemma sc_ok_start_le : forall s, sc_ok s -> ix (sc_start s) <= L.
  Proof. intros s (H & _). unfold cur_ok in H. lia. Qed.

  Lemma emit_ok : forall k v s, sc_ok s -> sc_ok (emit k v s).
  Proof.
    intros k v s (H1 & H2 & H3 & H4). unfold sc_ok; simpl.
    repeat (split; [assumption|]).
    constructor; auto. unfold tok_ok, cur_ok in *; simpl. lia.
  Qed.
  Lemma rem_emit : forall k v s, rem (emit k v s) = rem s.
  Proof. reflexivity. Qed.

  Lemma next_spec : forall s c s', next s = (c, s') -> sc_ok s ->
    sc_ok s' /\ rem s' <= rem s /\ (forall ch, c = Some ch -> S (rem s') = rem s)
    /\ (c = None -> s' = s).
  Proof.
    intros s c s' H Hok. revert H. unfold next, rem.
    destruct (suf (sc_pos s)) as [|x r] eqn:E; intros H; inversion H; subst.
    - rewrite E. split; [assumption|]. split; [auto|]. split; [intros; discriminate|auto].
    - split; [apply sc_ok_set_pos; auto; apply cur_incr_ok; [apply Hok|congruence]|].
      simpl. rewrite E. simpl. split; [auto|]. split; [auto|intros; discriminate].
  Qed.

  Lemma peek_is_nonempty : forall c s, peek_is c s = true -> suf (sc_pos s) <> [].
  Proof. unfold peek_is, peek. intros c s H E. rewrite E in H. discriminate. Qed.

  Lemma emit_next_ok : forall k s, sc_ok s -> post s (emit_next k s).
  Proof.
    intros k s Hok. unfold emit_next. destruct (next s) as [o s'] eqn:E.
    destruct (next_spec _ _ _ E Hok) as (H1 & H2 & _).
    split; [apply emit_ok; auto|rewrite rem_emit; auto].
  Qed.
  Lemma emit_next_lt : forall c k s, sc_ok s -> peek_is c s = true ->
    sc_ok (emit_next k s) /\ rem (emit_next k s) < rem s.
  Proof.
    intros c k s Hok Hp. unfold emit_next. destruct (next s) as [o s'] eqn:E.
    destruct (next_spec _ _ _ E Hok) as (H1 & H2 & H3 & H4).
    split; [apply emit_ok; auto|]. rewrite rem_emit.
    destruct o as [ch|]; [specialize (H3 ch eq_refl); lia|].
    apply peek_is_nonempty in Hp. unfold next in E.
    destruct (suf (sc_pos s)); [congruence|discriminate].
  Qed.

  Lemma error_good : forall A (Q : A -> Prop) s, sc_ok s -> good Q (@error A s).
  Proof. intros A Q s (_ & _ & H & _). simpl. rewrite H. apply Nat.le_min_r. Qed.

  Lemma expect_good : forall c k s, sc_ok s ->
    good (fun s' => sc_ok s' /\ rem s' < rem s) (expect c k s).
  Proof.
    intros c k s Hok. unfold expect. destruct (peek_is c s) eqn:E.
    - simpl. eapply emit_next_lt; eauto.
    - apply error_good; auto.
  Qed.

  Lemma expect_post : forall c k s, sc_ok s -> good (post s) (expect c k s).
  Proof. intros c k s Hok. wk expect_good. Qed.

  Lemma scan_good : forall re s, sc_ok s -> re_total re ->
    good (fun a => sc_ok (snd a) /\ rem (snd a) <= rem s
                   /\ (re_pos re -> fst a <> None -> rem (snd a) < rem s)) (scan re s).
  Proof.
    intros re s Hok Ht. unfold scan. specialize (Ht (suf (sc_pos s))).
    destruct (re (suf (sc_pos s))) as [n| |] eqn:E; simpl; [| |congruence].
    - split; [apply sc_ok_set_pos; auto; apply cur_adv_ok; apply Hok|].
      split; [apply cur_adv_le|].
      intros Hp _. destruct (Hp _ _ E). apply cur_adv_lt; auto.
    - split; [assumption|]. split; [auto|]. intros _ H; congruence.
  Qed.

  Lemma scan_emit_good : forall re k s, sc_ok s -> re_total re ->
    good (fun a => sc_ok (snd a) /\ rem (snd a) <= rem s
                   /\ (re_pos re -> fst a = true -> rem (snd a) < rem s)) (scan_emit re k s).
  Proof.
    intros re k s Hok Ht. unfold scan_emit.
    eapply good_bind; [apply scan_good; auto|].
    intros [v s'] (H1 & H2 & H4). simpl in *. destruct v as [value|]; simpl.
    - split; [apply emit_ok; auto|]. rewrite rem_emit. split; auto.
      intros Hp _. apply H4; auto. discriminate.
    - split; [assumption|]. split; [auto|]. intros; discriminate.
  Qed.

  Lemma scan_emit_post : forall re k s, sc_ok s -> re_total re -> good (postb s) (scan_emit re k s).
  Proof.
    intros re k s Hok Ht. eapply good_weaken; [apply scan_emit_good; auto|].
    intros a (O & R & _). split; assumption.
  Qed.

  Lemma skip_good : forall re s, sc_ok s -> re_total re -> re_pos re ->
    good (postb_lt s) (skip re s).
  Proof.
    intros re s Hok Ht Hp. unfold skip. specialize (Ht (suf (sc_pos s))).
    destruct (re (suf (sc_pos s))) as [n| |] eqn:E; simpl; [| |congruence].
    - destruct (Hp _ _ E). unfold postb_lt; simpl.
      split; [apply sc_ok_set_start; [apply sc_ok_set_pos; auto|]; apply cur_adv_ok; apply Hok|].
      split; [apply cur_adv_le|]. intros _. apply cur_adv_lt; auto.
    - unfold postb_lt; simpl. split; [assumption|]. split; [auto|]. intros; discriminate.
  Qed.

  Hint Resolve re_whitespace_total re_whitespace_pos re_line_comment_total re_line_comment_pos
    re_block_comment_total re_block_comment_pos re_number_pos : core.

  Lemma skip_trivia_loop_good : forall fuel s, rem s < fuel -> sc_ok s ->
    good (post s) (skip_trivia_loop fuel s).
  Proof.
    induction fuel as [|fuel IH]; intros s Hf Hok; [lia|]. simpl.
    step skip_good as [b1 s1] (O1 & R1 & T1).
    step skip_good as [b2 s2] (O2 & R2 & T2).
    step skip_good as [b3 s3] (O3 & R3 & T3).
    destruct (b1 || b2 || b3) eqn:E; [|fin].
    wk IH. (* a skip that succeeded has consumed something *)
    destruct b1; [specialize (T1 eq_refl); lia|].
    destruct b2; [specialize (T2 eq_refl); lia|].
    destruct b3; [specialize (T3 eq_refl); lia|discriminate].
  Qed.
  Lemma skip_trivia_good : forall s, sc_ok s -> good (post s) (skip_trivia s).
  Proof. intros. apply skip_trivia_loop_good; auto. Qed.

  Lemma opt_skip_trivia_good : forall (b : bool) s, sc_ok s ->
    good (post s) (if b then skip_trivia s else Ok s).
  Proof. intros [|] s Hok; [apply skip_trivia_good; auto|fin]. Qed.

  Lemma post_refl : forall s, sc_ok s -> post s s.
  Proof. intros; split; auto. Qed.
  Lemma post_trans : forall s1 s2 s3, post s1 s2 -> post s2 s3 -> post s1 s3.
  Proof. intros s1 s2 s3 [_ H1] [H2 H3]; split; auto; lia. Qed.

  (* `self.pos += 1; self.start = self.pos` after a successful peek *)
  Lemma skip1_ok : forall c s, sc_ok s -> peek_is c s = true ->
    post s (set_start (set_pos s (cur_incr (sc_pos s))) (cur_incr (sc_pos s))).
  Proof.
    intros c s Hok Hp. apply peek_is_nonempty in Hp.
    assert (Hc : cur_ok (cur_incr (sc_pos s))) by (apply cur_incr_ok; auto; apply Hok).
    split; [apply sc_ok_set_start; auto; apply sc_ok_set_pos; auto|].
    unfold rem; simpl. destruct (suf (sc_pos s)); simpl; lia.
  Qed.

  (* `self.pos = self.start = pos` for the position saved in an earlier state s *)
  Lemma restore_ok : forall s s1, sc_ok s -> sc_ok s1 ->
    post s (set_start (set_pos s1 (sc_pos s)) (sc_pos s)).
  Proof.
    intros s s1 Hok O1. split; [|apply le_n].
    apply sc_ok_set_start; [apply sc_ok_set_pos|]; auto; apply Hok.
  Qed.

  Lemma string_loop_good : forall fuel k nu s, rem s < fuel -> sc_ok s ->
    good (postb s) (string_loop fuel k nu s).
  Proof.
    induction fuel as [|fuel IH]; intros k nu s Hf Hok; [lia|]. simpl.
    destruct (next s) as [c s1] eqn:En.
    destruct (next_spec _ _ _ En Hok) as (O1 & R1 & C1 & N1).
    eapply good_bind with (P := postb s1).
    { destruct (is_some_eq c 92); [|fin].
      destruct (in_escapes (peek s1)); [|apply error_good; auto].
      destruct (next s1) as [c2 s2] eqn:En2.
      destruct (next_spec _ _ _ En2 O1) as (O2 & R2 & _). fin. }
    intros [nu' s2] [O2 R2]. cbn [fst snd] in *.
    destruct c as [ch|]; [|apply error_good; auto].
    specialize (C1 ch eq_refl).
    destruct (ch =? 34)%N; [|wk IH; lia].
    eapply good_bind with (P := fun _ => True).
    { destruct nu'; [|exact I]. apply unescape_string_good. apply sc_ok_start_le; auto. }
    intros value _. pose proof (emit_ok k value s2 O2). rewrite <- (rem_emit k value s2) in R2. fin.
  Qed.

  Lemma accept_string_good : forall s, sc_ok s -> good (postb s) (accept_string s).
  Proof.
    intros s Hok. unfold accept_string.
    destruct (peek_is 34 s) eqn:Hp; cbv beta iota zeta delta [negb]; [|fin].
    destruct (skip1_ok _ _ Hok Hp) as [O1 R1].
    wk string_loop_good.
  Qed.

  Lemma accept_ci_string_good : forall s, sc_ok s -> good (postb s) (accept_ci_string s).
  Proof.
    intros s Hok. unfold accept_ci_string.
    destruct (peek_is 94 s) eqn:Hp; cbv beta iota zeta delta [negb]; [|fin].
    destruct (skip1_ok _ _ Hok Hp) as [O1 R1].
    step skip_trivia_good as s2 [O2 R2].
    destruct (peek_is 34 s2) eqn:Hp2; [|apply error_good; auto].
    destruct (skip1_ok _ _ O2 Hp2) as [O3 R3].
    wk string_loop_good.
  Qed.

  Lemma repeat_braces_loop_good : forall fuel s, rem s < fuel -> sc_ok s ->
    good (post s) (repeat_braces_loop fuel s).
  Proof.
    induction fuel as [|fuel IH]; intros s Hf Hok; [lia|]. simpl.
    step skip_trivia_good as s1 [O1 R1].
    destruct (peek_is 44 s1) eqn:Hp.
    - destruct (emit_next_lt 44%N K_COMMA s1 O1) as [O2 R2]; [auto|].
      wk IH; lia.
    - step scan_good as [v s2] (O2 & R2 & P2).
      destruct v as [value|]; [|fin].
      assert (rem s2 < rem s1) by (apply P2; [auto|discriminate]).
      pose proof (emit_ok K_NUMBER value s2 O2). pose proof (rem_emit K_NUMBER value s2).
      wk IH; lia.
  Qed.

  Lemma accept_one_postfix_op_good : forall s, sc_ok s ->
    good (postb_lt s) (accept_one_postfix_op s).
  Proof.
    intros s Hok. unfold accept_one_postfix_op, postb_lt.
    step skip_trivia_good as s1 [O1 R1].
    (* one of the four operators: its first character is consumed *)
    assert (Hn : forall c k, is_some_eq (peek s1) c = true ->
              sc_ok (emit_next k s1) /\ rem (emit_next k s1) < rem s).
    { intros c k Hp. destruct (emit_next_lt c k s1 O1 Hp) as [A B]. split; [auto|lia]. }
    destruct (negb _) eqn:E0.
    { destruct (restore_ok s s1 Hok O1). cbn [good fst snd]. split; [auto|split; [auto|discriminate]]. }
    destruct (is_some_eq (peek s1) 63) eqn:E1; [destruct (Hn _ K_OPTION_OP E1); cbn; auto with arith|].
    destruct (is_some_eq (peek s1) 42) eqn:E2; [destruct (Hn _ K_REPEAT_OP E2); cbn; auto with arith|].
    destruct (is_some_eq (peek s1) 43) eqn:E3; [destruct (Hn _ K_REPEAT_ONCE_OP E3); cbn; auto with arith|].
    destruct (is_some_eq (peek s1) 123) eqn:E4; [|discriminate].
    destruct (Hn _ K_LBRACE E4) as [O2 R2]. cbv zeta.
    step repeat_braces_loop_good as s3 [O R].
    seq skip_trivia_good as s4.
    seq expect_post as s5.
    cbn [good fst snd]. split; [auto|split; [lia|intros; lia]].
  Qed.

  Lemma accept_postfix_loop_good : forall fuel s, rem s < fuel -> sc_ok s ->
    good (post s) (accept_postfix_loop fuel s).
  Proof.
    induction fuel as [|fuel IH]; intros s Hf Hok; [lia|]. simpl.
    step accept_one_postfix_op_good as [b s1] (O1 & R1 & T1).
    destruct b; [|fin].
    specialize (T1 eq_refl).
    wk IH; lia.
  Qed.
  Lemma accept_postfix_op_good : forall s, sc_ok s -> good (post s) (accept_postfix_op s).
  Proof. intros. apply accept_postfix_loop_good; auto. Qed.

  Lemma prefix_loop_good : forall fuel s, rem s < fuel -> sc_ok s ->
    good (post s) (prefix_loop fuel s).
  Proof.
    induction fuel as [|fuel IH]; intros s Hf Hok; [lia|]. simpl.
    destruct (peek_is 38 s || peek_is 33 s) eqn:E; [|fin].
    assert (Hs : forall k1 k2 (b : bool),
              let s1 := if b then emit_next k1 s else emit_next k2 s in sc_ok s1 /\ rem s1 < rem s).
    { apply orb_true_iff in E. intros k1 k2 b. destruct E; destruct b; eapply emit_next_lt; eauto. }
    destruct (Hs K_POSITIVE_PREDICATE K_NEGATIVE_PREDICATE (peek_is 38 s)) as [O1 R1].
    step skip_trivia_good as s2 [O2 R2].
    wk IH; lia.
  Qed.

  Lemma accept_peek_tail_good : forall s, sc_ok s -> good (postb s) (accept_peek_tail s).
  Proof.
    intros s Hok. unfold accept_peek_tail.
    step skip_trivia_good as s1 [O R].
    destruct (peek_is 91 s1) eqn:Hp; cbv beta iota zeta delta [negb].
    2:{ exact (restore_ok s s1 Hok O). }
    destruct (post_trans _ _ _ (conj O R) (emit_next_ok K_LBRACKET s1 O)) as [O2 R2].
    seq skip_trivia_good as s3.
    seqb scan_emit_post as b4 s4.
    seq opt_skip_trivia_good as s5.
    seqb scan_emit_post as b6 s6.
    destruct b6; cbv beta iota delta [negb]; [|apply error_good; auto].
    seq skip_trivia_good as s7.
    seqb scan_emit_post as b8 s8.
    seq opt_skip_trivia_good as s9.
    seq expect_post as s10.
    fin.
  Qed.

  Lemma accept_range_tail_good : forall s, sc_ok s -> good (postb s) (accept_range_tail s).
  Proof.
    intros s Hok. unfold accept_range_tail.
    step skip_trivia_good as s1 [O R].
    seqb scan_emit_post as b2 s2.
    destruct b2; cbv beta iota delta [negb]; [|apply error_good; auto].
    seq skip_trivia_good as s3.
    seqb scan_emit_post as b4 s4.
    destruct b4; cbv beta iota delta [negb]; [|apply error_good; auto].
    fin.
  Qed.

  Lemma accept_group_good : forall fuel,
    (forall s, sc_ok s -> 3 * rem s + 3 <= fuel -> good (post s) (accept_expression fuel s)) /\
    (forall s, sc_ok s -> 3 * rem s + 1 <= fuel -> good (post s) (accept_expression_loop fuel s)) /\
    (forall s, sc_ok s -> 3 * rem s + 2 <= fuel -> good (post s) (accept_term fuel s)) /\
    (forall s, sc_ok s -> 3 * rem s + 1 <= fuel -> good (postb s) (accept_terminal fuel s)).
  Proof.
    induction fuel as [|fuel (IHE & IHL & IHT & IHA)].
    { repeat split; intros; lia. }
    split; [|split; [|split]]; intros s Hok Hf;
      cbn [accept_expression accept_expression_loop accept_term accept_terminal].
    - (* accept_expression *)
      step skip_trivia_good as s1 [O R].
      eapply seq_post with (s := s1); [|exact R|clear O R; intros s2 O R].
      { destruct (peek_is 124 s1); [|apply post_refl; auto].
        destruct (emit_next_ok K_CHOICE_OP s1 O) as [O2 R2].
        wk skip_trivia_good. }
      seq IHT as s3; [lia|].
      wk IHL. lia.
    - (* accept_expression_loop *)
      step skip_trivia_good as s1 [O R].
      (* an operator, then a term, then the loop again *)
      assert (Hop : forall c k, peek_is c s1 = true ->
                good (post s) (let* s := skip_trivia (emit_next k s1) in
                               let* s := accept_term fuel s in accept_expression_loop fuel s)).
      { intros c k Hp. destruct (emit_next_lt c k s1 O Hp) as [O2 R2].
        step skip_trivia_good as s3 [O3 R3].
        seq IHT as s4; [lia|].
        wk IHL. lia. }
      destruct (peek_is 126 s1) eqn:Hp1; [exact (Hop _ _ Hp1)|].
      destruct (peek_is 124 s1) eqn:Hp2; [exact (Hop _ _ Hp2)|fin].
    - (* accept_term *)
      step scan_good as [v s1] (O & R & _).
      eapply seq_post with (s := s1); [|exact R|clear O R; intros s2 O R].
      { destruct v as [value|]; [|apply post_refl; auto].
        assert (Oe : sc_ok (emit K_TAG value s1)) by (apply emit_ok; auto).
        step skip_trivia_good as s2 [O2 R2]. rewrite rem_emit in R2.
        seq expect_post as s3.
        wk skip_trivia_good. }
      seq prefix_loop_good as s3.
      seqb IHA as b s4; [lia|].
      destruct b; [wk accept_postfix_op_good|].
      (* the parenthesis consumed pays for the call of accept_expression *)
      step expect_good as s5 [O5 R5].
      step skip_trivia_good as s6 [O6 R6].
      seq IHE as s7; [lia|].
      seq skip_trivia_good as s8.
      seq expect_post as s9.
      wk accept_postfix_op_good.
    - (* accept_terminal *)
      step scan_emit_post as [b s1] [O R].
      destruct b.
      { seq skip_trivia_good as s2.
        seq expect_post as s3.
        seq skip_trivia_good as s4.
        seqb accept_string_good as b5 s5.
        seq skip_trivia_good as s6.
        seq expect_post as s7.
        fin. }
      seqb scan_emit_post as b s2.
      destruct b.
      { seq skip_trivia_good as s3.
        step expect_good as s4 [O4 R4].
        step skip_trivia_good as s5 [O5 R5].
        seq IHE as s6; [lia|].
        seq skip_trivia_good as s7.
        seq expect_post as s8.
        fin. }
      seqb scan_emit_post as b s3.
      destruct b; [fin|].
      seqb scan_emit_post as b s4.
      destruct b; [fin|].
      seqb scan_emit_post as b s5.
      destruct b; [fin|].
      seqb scan_emit_post as b s6.
      destruct b; [fin|].
      seqb scan_emit_post as b s7.
      destruct b; [wk accept_peek_tail_good|].
      seqb scan_emit_post as b s8.
      destruct b; [fin|].
      seqb accept_string_good as b s9.
      destruct b; [fin|].
      seqb accept_ci_string_good as b s10.
      destruct b; [fin|].
      seqb scan_emit_post as b s11.
      destruct b; [wk accept_range_tail_good|].
      fin.
  Qed.

  Lemma accept_expression_good : forall s, sc_ok s ->
    good (post s) (accept_expression (expr_fuel s) s).
  Proof. intros s Hok. apply (accept_group_good (expr_fuel s)); auto. Qed.

  Lemma scan_until_newline_spec : forall s v s', scan_until_newline s = (v, s') -> sc_ok s ->
    post s s'.
  Proof.
    intros s v s' H Hok. unfold scan_until_newline in H.
    destruct (search_newline (suf (sc_pos s))); inversion H; subst; [|apply post_refl; auto].
    split; [apply sc_ok_set_pos; auto; apply cur_adv_ok; apply Hok|apply cur_adv_le].
  Qed.

  Lemma scan_doc_inner_post : forall s, sc_ok s -> post s (scan_doc_inner s).
  Proof.
    intros s Hok. unfold scan_doc_inner.
    match goal with |- context [scan_until_newline ?x] => assert (H1 : post s x); [|set (s1 := x) in *] end.
    { destruct (_ || _); [|apply post_refl; auto].
      destruct (next s) as [c s'] eqn:En. destruct (next_spec _ _ _ En Hok) as (O1 & R1 & _).
      cbn [snd]. split; [apply sc_ok_set_start; auto; apply O1|exact R1]. }
    destruct H1 as [O1 R1].
    destruct (scan_until_newline s1) as [[value|] s2] eqn:E;
      destruct (scan_until_newline_spec _ _ _ E O1) as [O2 R2].
    - split; [apply emit_ok; auto|rewrite rem_emit; lia].
    - split; [apply emit_ok|rewrite rem_emit; unfold rem; simpl; lia].
      apply sc_ok_set_pos; auto. unfold cur_ok; simpl. destruct O2 as (_ & _ & -> & _); lia.
  Qed.

  (* the transitions that may consume nothing go down in weight (grammar_doc_inner -> grammar ->
     grammar_rule, rule_doc_inner -> grammar_rule); every other one consumes a character, which counts
     2, more than any difference of weights *)
  Definition st_weight (st : statefn) : nat :=
    match st with S_grammar => 1 | S_grammar_doc_inner => 2 | S_grammar_rule => 0 | S_rule_doc_inner => 1 end.
  Definition mu (st : statefn) (s : sc) : nat := 2 * rem s + st_weight st.

  Definition state_post (st : statefn) (s : sc) (a : option statefn * sc) : Prop :=
    sc_ok (snd a) /\ forall st', fst a = Some st' -> mu st' (snd a) < mu st s.

  Lemma state_post_next : forall st s st' s', sc_ok s' -> mu st' s' < mu st s ->
    state_post st s (Some st', s').
  Proof. intros st s st' s' O M. split; [exact O|]. intros st0 E. inversion E; subst. exact M. Qed.

  Lemma scan_grammar_good : forall s, sc_ok s -> good (state_post S_grammar s) (scan_grammar s).
  Proof.
    intros s Hok. unfold scan_grammar.
    step skip_trivia_good as s1 [O1 R1].
    step scan_emit_good as [b s2] (O2 & R2 & P2).
    destruct b; apply state_post_next; auto; unfold mu; cbn [st_weight]; [|lia].
    specialize (P2 (re_lit_pos _ _) eq_refl). lia.
  Qed.

  Lemma scan_grammar_rule_good : forall s, sc_ok s ->
    good (state_post S_grammar_rule s) (scan_grammar_rule s).
  Proof.
    intros s Hok. unfold scan_grammar_rule.
    step skip_trivia_good as s1 [O1 R1].
    step scan_emit_good as [b s2] (O2 & R2 & P2).
    destruct b.
    { apply state_post_next; [auto|]. unfold mu; cbn [st_weight].
      specialize (P2 (re_lit_pos _ _) eq_refl). lia. }
    seq skip_trivia_good as s3.
    destruct (strip_prefix _ _); [apply error_good; auto|].
    seqb scan_emit_post as b s4.
    destruct b; cbv beta iota delta [negb].
    2:{ destruct (Nat.eqb _ _); [|apply error_good; auto].
        unfold state_post; cbn [fst snd good]. split; auto. intros; discriminate. }
    seq skip_trivia_good as s5.
    (* the `=` consumed makes the measure fall *)
    step expect_good as s6 [O6 R6].
    step skip_trivia_good as s7 [O7 R7].
    seqb scan_emit_post as b8 s8.
    seq opt_skip_trivia_good as s9.
    seq expect_post as s10.
    seq accept_expression_good as s11.
    seq expect_post as s12.
    apply state_post_next; [auto|]. unfold mu; cbn [st_weight]. lia.
  Qed.

  Lemma run_state_good : forall st s, sc_ok s -> good (state_post st s) (run_state st s).
  Proof.
    intros st s Hok. destruct (scan_doc_inner_post s Hok) as [O1 R1].
    destruct st; cbn [run_state].
    - apply scan_grammar_good; auto.
    - apply state_post_next; [auto|]. unfold mu; cbn [st_weight]. lia.
    - apply scan_grammar_rule_good; auto.
    - apply state_post_next; [auto|]. unfold mu; cbn [st_weight]. lia.
  Qed.

  Lemma scanner_loop_good : forall fuel st s, sc_ok s -> mu st s < fuel ->
    good sc_ok (scanner_loop fuel st s).
  Proof.
    induction fuel as [|fuel IH]; intros st s Hok Hf; [lia|]. cbn [scanner_loop].
    step run_state_good as [st' s1] [O1 M1].
    destruct st' as [st'|]; [|exact O1].
    apply IH; auto. specialize (M1 st' eq_refl). lia.
  Qed.

  Lemma tokenize_good : forall grammar, length grammar = L ->
    good (Forall tok_ok) (tokenize grammar).
  Proof.
    intros grammar HL. unfold tokenize.
    eapply good_bind; [apply scanner_loop_good|].
    - unfold sc_ok, cur_ok; simpl. repeat split; auto.
    - unfold mu, rem; simpl. lia.
    - intros s (_ & _ & _ & H). simpl. apply Forall_rev; auto.
  Qed.

  Section PARSER_PROOFS.
    Variable eof : token.
    Variable builtins : list (text * text).
    Hypothesis eof_kind : tk_kind eof = K_EOI.
    Hypothesis eof_ok : tok_ok eof.

    Lemma current_ok : forall ts, ts_ok ts -> tok_ok (current eof ts).
    Proof. intros [|t r] H; simpl; auto. inversion H; auto. Qed.

    Lemma current_kind_nonempty : forall ts k,
      kind_eqb (tk_kind (current eof ts)) k = true -> k <> K_EOI -> ts <> [].
    Proof.
      intros ts k H Hk ->. simpl in H. rewrite eof_kind in H. apply kind_eqb_eq in H. congruence.
    Qed.

    Lemma tl_ok : forall ts, ts_ok ts -> ts_ok (tl ts).
    Proof. intros; apply Forall_tl; auto. Qed.
    Lemma tl_le : forall (ts : list token), length (tl ts) <= length ts.
    Proof. destruct ts; simpl; lia. Qed.
    Lemma tl_lt : forall (ts : list token), ts <> [] -> length (tl ts) < length ts.
    Proof. destruct ts; simpl; [congruence|lia]. Qed.

    Hint Resolve current_ok tl_ok : core.

    Lemma pnext_eq : forall ts, pnext eof ts = (current eof ts, tl ts).
    Proof. destruct ts; reflexivity. Qed.

    Lemma eat_good : forall k ts, ts_ok ts ->
      good (fun a => tok_ok (fst a) /\ tk_kind (fst a) = k /\ ts_ok (snd a)
                     /\ length (snd a) <= length ts
                     /\ (k <> K_EOI -> length (snd a) < length ts)) (eat eof k ts).
    Proof.
      intros k ts Hok. unfold eat. rewrite pnext_eq.
      destruct (kind_eqb (tk_kind (current eof ts)) k) eqn:Ek; cbv beta iota delta [negb];
        [|exact (current_ok ts Hok)].
      cbn [good fst snd]. repeat split; auto using tl_le, kind_eqb_eq.
      intros Hk. exact (tl_lt ts (current_kind_nonempty _ _ Ek Hk)).
    Qed.

    Lemma eat_post : forall k ts, ts_ok ts -> good (ppost ts) (eat eof k ts).
    Proof.
      intros k ts Hok. eapply good_weaken; [apply eat_good; exact Hok|].
      intros a (_ & _ & O & R & _). split; assumption.
    Qed.

    Lemma token_int_good : forall t, tok_ok t -> good (fun _ => True) (token_int t).
    Proof.
      intros t H. unfold tok_ok in H. unfold token_int.
      destruct (py_int _); [destruct (Z.ltb _ _)|]; simpl; auto.
    Qed.

    Lemma parse_repeat_expression_good : forall expr ts, ts_ok ts ->
      good (ppost ts) (parse_repeat_expression eof expr ts).
    Proof.
      intros expr ts Hok. unfold parse_repeat_expression. rewrite pnext_eq.
      pose proof (tl_le ts) as R1.
      destruct (kind_eqb (tk_kind (current eof ts)) K_NUMBER).
      - destruct (cur_kind_is eof (tl ts) K_RBRACE).
        + pose proof (tl_le (tl ts)). step token_int_good as n _. fin.
        + step eat_post as [t2 ts2] [O2 R2].
          destruct (cur_kind_is eof ts2 K_RBRACE).
          * pose proof (tl_le ts2). step token_int_good as n _. fin.
          * step eat_good as [t3 ts3] (T3 & _ & O3 & R3 & _).
            step eat_post as [t4 ts4] [O4 R4].
            step token_int_good as m _. step token_int_good as n _. fin.
      - destruct (kind_eqb (tk_kind (current eof ts)) K_COMMA); [|exact (current_ok ts Hok)].
        step eat_good as [t2 ts2] (T2 & _ & O2 & R2 & _).
        step eat_post as [t3 ts3] [O3 R3].
        step token_int_good as n _. fin.
    Qed.

    Lemma parse_postfix_expression_good : forall expr ts, ts_ok ts ->
      good (fun a => ts_ok (snd a) /\ length (snd a) <= length ts
                     /\ (fst a <> None -> length (snd a) < length ts))
           (parse_postfix_expression eof expr ts).
    Proof.
      intros expr ts Hok. unfold parse_postfix_expression.
      destruct ts as [|tok ts1].
      { (* past the last token the kind is EOI: no test succeeds *)
        cbn [current]. rewrite eof_kind. cbn. split; [auto|split; [lia|congruence]]. }
      assert (Hlt : length ts1 < length (tok :: ts1)) by apply Nat.lt_succ_diag_r.
      pose proof (tl_ok _ Hok) as O1. cbn [current tl] in *.
      destruct (kind_eqb _ K_OPTION_OP); [cbn [good fst snd]; auto using Nat.lt_le_incl|].
      destruct (kind_eqb _ K_REPEAT_OP); [cbn [good fst snd]; auto using Nat.lt_le_incl|].
      destruct (kind_eqb _ K_REPEAT_ONCE_OP); [cbn [good fst snd]; auto using Nat.lt_le_incl|].
      destruct (kind_eqb _ K_LBRACE).
      - step parse_repeat_expression_good as [e ts2] [O2 R2].
        cbn [good fst snd]. split; [auto|split; [lia|intros; lia]].
      - cbn [good fst snd]. split; [auto|split; [lia|congruence]].
    Qed.

    Lemma postfix_loop_good : forall fuel e ts, ts_ok ts -> length ts < fuel ->
      good (ppost ts) (postfix_loop eof fuel e ts).
    Proof.
      induction fuel as [|fuel IH]; intros e ts Hok Hf; [lia|]. cbn [postfix_loop].
      step parse_postfix_expression_good as [o ts1] (O1 & R1 & T1).
      destruct o as [e'|]; [|fin].
      assert (length ts1 < length ts) by (apply T1; discriminate).
      wk IH; lia.
    Qed.

    Lemma opt_int_good : forall ts, ts_ok ts ->
      good (ppost ts) (if cur_kind_is eof ts K_INTEGER
                       then let '(t, ts) := pnext eof ts in let* z := token_int t in Ok (Some z, ts)
                       else Ok (None, ts)).
    Proof.
      intros ts Hok. destruct (cur_kind_is eof ts K_INTEGER); [|fin].
      rewrite pnext_eq. pose proof (tl_le ts). step token_int_good as z _. fin.
    Qed.

    Lemma parse_peek_expression_good : forall tag ts, ts_ok ts ->
      good (ppost ts) (parse_peek_expression eof tag ts).
    Proof.
      intros tag ts Hok. unfold parse_peek_expression.
      destruct (cur_kind_is eof ts K_LBRACKET); cbv beta iota delta [negb]; [|fin].
      step eat_post as [t1 ts1] [O1 R1].
      step opt_int_good as [start ts2] [O2 R2].
      step eat_post as [t3 ts3] [O3 R3].
      step opt_int_good as [stop ts4] [O4 R4].
      step eat_post as [t5 ts5] [O5 R5]. fin.
    Qed.

    Lemma not_eoi_nonempty : forall ts,
      kind_eqb (tk_kind (current eof ts)) K_EOI = false -> ts <> [].
    Proof. intros ts H ->. simpl in H. rewrite eof_kind in H. discriminate. Qed.

    Lemma primary_good : forall PE tag ts, ts_ok ts ->
      (forall p t, ts_ok t -> length t < length ts -> good (ppost t) (PE p t)) ->
      good (ppost ts) (primary eof builtins PE tag ts).
    Proof.
      intros PE tag ts Hok IH. unfold primary. cbv zeta.
      destruct ts as [|tok ts1].
      { (* past the last token the kind is EOI: every test fails *)
        cbn [current]. rewrite eof_kind. exact eof_ok. }
      inversion Hok as [|? ? Tk O1]; subst. cbn [current pnext tl fst snd].
      assert (Hlt : length ts1 < length (tok :: ts1)) by apply Nat.lt_succ_diag_r.
      apply (good_if (kind_eqb _ K_STRING)); [fin|].
      apply (good_if (kind_eqb _ K_STRING_CI)); [fin|].
      apply (good_if (kind_eqb _ K_LPAREN)).
      { step IH as [e ts2] [O2 R2].
        step eat_post as [t3 ts3] [O3 R3]. fin. }
      apply (good_if (kind_eqb _ K_IDENTIFIER)).
      { destruct (lookup (tk_value tok) builtins); destruct (negb _); cbn [andb]; fin. }
      apply (good_if (kind_eqb _ K_PUSH_LITERAL)).
      { step eat_post as [t2 ts2] [O2 R2].
        step eat_post as [t3 ts3] [O3 R3].
        step eat_post as [t4 ts4] [O4 R4]. fin. }
      apply (good_if (kind_eqb _ K_PUSH)).
      { step eat_post as [t2 ts2] [O2 R2].
        step IH as [e ts3] [O3 R3]; [lia|].
        step eat_post as [t4 ts4] [O4 R4]. fin. }
      apply (good_if (kind_eqb _ K_PEEK)).
      { eapply good_weaken; [apply parse_peek_expression_good; auto|].
        intros a [A B]. split; [auto|lia]. }
      apply (good_if (kind_eqb _ K_PEEK_ALL)); [fin|].
      apply (good_if (kind_eqb _ K_POP)); [fin|].
      apply (good_if (kind_eqb _ K_DROP)); [fin|].
      apply (good_if (kind_eqb _ K_POP_ALL)); [fin|].
      apply (good_if (kind_eqb _ K_CHAR)).
      { step eat_post as [t2 ts2] [O2 R2].
        step unescape_string_good as start _.
        step eat_post as [t3 ts3] [O3 R3].
        step eat_post as [t4 ts4] [O4 R4].
        step unescape_string_good as stop _. fin. }
      apply (good_if (kind_eqb _ K_POSITIVE_PREDICATE)).
      { step IH as [e ts2] [O2 R2]. fin. }
      apply (good_if (kind_eqb _ K_NEGATIVE_PREDICATE)).
      { step IH as [e ts2] [O2 R2]. fin. }
      exact Tk.
    Qed.

    Lemma pe_body_good : forall B (Q : B -> Prop) PE (K : pexpr -> list token -> res B) ts,
      ts_ok ts ->
      (forall p t, ts_ok t -> length t < length ts -> good (ppost t) (PE p t)) ->
      (forall l t, ts_ok t -> length t <= length ts -> good Q (K l t)) ->
      good Q (pe_body eof builtins PE K ts).
    Proof.
      intros B Q PE K ts Hok IH HK. unfold pe_body.
      set (ts1 := if cur_kind_is eof ts K_CHOICE_OP then snd (pnext eof ts) else ts).
      assert (H1 : ts_ok ts1 /\ length ts1 <= length ts).
      { subst ts1. rewrite pnext_eq. pose proof (tl_le ts).
        destruct (cur_kind_is eof ts K_CHOICE_OP); cbn [snd]; auto. }
      destruct H1 as [O1 R1]. clearbody ts1.
      eapply good_bind with (P := ppost ts1).
      { destruct (cur_kind_is eof ts1 K_TAG); [|fin].
        rewrite pnext_eq. pose proof (tl_le ts1).
        step eat_post as [t3 ts3] [O3 R3]. fin. }
      intros [tag ts2] [O2 R2]. cbn [fst snd] in *.
      eapply good_bind; [apply primary_good; [auto|intros; apply IH; auto; lia]|].
      intros [lft ts3] [O3 R3]. cbn [fst snd] in *.
      step postfix_loop_good as [lft' ts4] [O4 R4].
      apply HK; [auto|lia].
    Qed.

    Lemma il_body_good : forall PI IL p l ts, ts_ok ts ->
      (forall l, ts <> [] -> good (ppost_lt ts) (PI l ts)) ->
      (forall l t, ts_ok t -> length t < length ts -> good (ppost t) (IL p l t)) ->
      good (ppost ts) (il_body eof PI IL p l ts).
    Proof.
      intros PI IL p l ts Hok HPI HIL. unfold il_body, infix_stops. cbv zeta.
      destruct (kind_eqb (tk_kind (current eof ts)) K_EOI) eqn:Ee; cbn [orb]; [fin|].
      destruct (_ || _); [fin|].
      step HPI as [l' ts1] [O1 R1]; [exact (not_eoi_nonempty _ Ee)|].
      wk HIL.
    Qed.

    (* `infix_run` on K_EOI would not stop at the end of the tokens (`current [] = eof`): hence k <> K_EOI *)
    Lemma parse_group_good : forall fuel,
      (forall prec ts, ts_ok ts -> 4 * length ts + 4 <= fuel ->
         good (ppost ts) (parse_expression eof builtins fuel prec ts)) /\
      (forall prec l ts, ts_ok ts -> 4 * length ts + 3 <= fuel ->
         good (ppost ts) (infix_loop eof builtins fuel prec l ts)) /\
      (forall l ts, ts_ok ts -> 4 * length ts + 2 <= fuel ->
         good (ppost_lt ts) (parse_infix_expression eof builtins fuel l ts)) /\
      (forall k prec ro ts, k <> K_EOI -> ts_ok ts -> 4 * length ts + 1 <= fuel ->
         good (fun a => ts_ok (snd a) /\ length (snd a) <= length ts
                        /\ (cur_kind_is eof ts k = true -> length (snd a) < length ts))
              (infix_run eof builtins fuel k prec ro ts)).
    Proof.
      induction fuel as [|fuel (IHPE & IHIL & IHPI & IHRUN)].
      { repeat split; intros; lia. }
      split; [|split; [|split]].
      - intros prec ts Hok Hf. rewrite parse_expression_S.
        apply pe_body_good; [auto|intros; apply IHPE; auto; lia|].
        intros l t Ht Hl. wk IHIL; lia.
      - intros prec l ts Hok Hf. rewrite infix_loop_S.
        apply il_body_good; [auto|intros; apply IHPI; auto; lia|].
        intros l' t Ht Hl. apply IHIL; auto; lia.
      - intros l ts Hok Hf. rewrite parse_infix_expression_S. unfold pi_body. cbv zeta.
        destruct (is_infix (tk_kind (current eof ts))) eqn:Ei; cbv beta iota delta [negb].
        2:{ exact (current_ok ts Hok). }
        pose proof (infix_not_eoi _ Ei) as Hk.
        step IHRUN as [operands ts1] (O1 & R1 & T1); [lia|].
        assert (length ts1 < length ts) by (apply T1; unfold cur_kind_is; apply kind_eqb_refl).
        fin.
      - intros k prec ro ts Hk Hok Hf. rewrite infix_run_S. unfold run_body.
        destruct (cur_kind_is eof ts k) eqn:Ec.
        + pose proof (tl_lt ts (current_kind_nonempty _ _ Ec Hk)) as Hlt.
          step IHPE as [e ts1] [O1 R1]; [lia|].
          eapply good_weaken; [apply IHRUN; auto; lia|].
          intros a (A & B & _). split; auto. split; [lia|intros; lia].
        + cbn [good fst snd]. split; auto. split; [lia|intros; discriminate].
    Qed.

    Lemma parse_expression_good : forall prec ts, ts_ok ts ->
      good (ppost ts) (parse_expression eof builtins (pexpr_fuel ts) prec ts).
    Proof. intros. apply (parse_group_good (pexpr_fuel ts)); auto. Qed.

    Lemma doc_loop_good : forall fuel k rdoc ts, k <> K_EOI -> ts_ok ts -> length ts < fuel ->
      good (ppost ts) (doc_loop eof fuel k rdoc ts).
    Proof.
      induction fuel as [|fuel IH]; intros k rdoc ts Hk Hok Hf; [lia|]. cbn [doc_loop].
      destruct (cur_kind_is eof ts k) eqn:E; [|fin].
      pose proof (tl_lt ts (current_kind_nonempty _ _ E Hk)) as Hlt.
      step eat_post as [t ts1] [O1 R1].
      wk IH; lia.
    Qed.

    Lemma parse_modifier_post : forall ts, ts_ok ts -> ppost ts (parse_modifier eof ts).
    Proof.
      intros ts Hok. unfold parse_modifier. rewrite pnext_eq. pose proof (tl_le ts).
      destruct (cur_kind_is eof ts K_MODIFIER); split; cbn [snd]; auto.
    Qed.

    Lemma parse_rules_loop_good : forall fuel rules ts, ts_ok ts -> length ts < fuel ->
      good (fun _ => True) (parse_rules_loop eof builtins fuel rules ts).
    Proof.
      induction fuel as [|fuel IH]; intros rules ts Hok Hf; [lia|]. cbn [parse_rules_loop].
      destruct (cur_kind_is eof ts K_EOI); [exact I|].
      step doc_loop_good as [rule_doc ts1] [O1 R1]; [discriminate|].
      destruct (cur_kind_is eof ts1 K_EOI); [exact I|].
      step eat_good as [t2 ts2] (_ & _ & O2 & _ & R2). specialize (R2 ltac:(discriminate)).
      step eat_post as [t3 ts3] [O3 R3].
      destruct (parse_modifier_post ts3 O3) as [O4 R4].
      destruct (parse_modifier eof ts3) as [modifier ts4]. cbn [snd] in *.
      step eat_post as [t5 ts5] [O5 R5].
      step parse_expression_good as [expression ts6] [O6 R6].
      step eat_post as [t7 ts7] [O7 R7].
      apply IH; auto. lia.
    Qed.

    Lemma parse_good : forall ts, ts_ok ts -> good (fun _ => True) (parse eof builtins ts).
    Proof.
      intros ts Hok. unfold parse.
      step doc_loop_good as [d ts1] [O1 R1]; [discriminate|].
      apply parse_rules_loop_good; auto.
    Qed.

  End PARSER_PROOFS.

End GOOD.

Definition front_res (grammar : text) : res (list (text * prule)) :=
  let* tokens := tokenize grammar in
  parse (mktoken K_EOI [] (length grammar)) BUILTIN tokens.

Lemma front_unfold : forall t,
  front t = match front_res t with
            | Ok rules => FOk (merge_rules rules)
            | Syn p => FSyntax p
            | Crash k => FCrash k
            | OutOfFuel => FFuel
            end.
Proof. reflexivity. Qed.

Lemma front_good : forall t, good (length t) (fun _ => True) (front_res t).
Proof.
  intros t. unfold front_res.
  eapply good_bind; [apply tokenize_good; auto|].
  intros tokens Hok. apply parse_good; auto.
  unfold tok_ok; simpl; lia.
Qed.

(* a lone surrogate after \x (grammar  a = { "\x<U+D800>a" } ) is a syntax error at the string's start *)
Example front_former_crash_witness :
  front [97;32;61;32;123;32;34;92;120;55296;97;34;32;125]%N = FSyntax 7.
Proof. vm_compute. reflexivity. Qed.

(* For EVERY text the front end as modelled returns a rule table or a grammar error: no other
   exception, and the fuel `front` supplies is always enough. *)
Theorem front_total : forall t,
  match front t with FOk _ | FSyntax _ => True | FCrash _ | FFuel => False end.
Proof.
  intros t. rewrite front_unfold. pose proof (front_good t) as H.
  destruct (front_res t); simpl in *; tauto.
Qed.

Theorem front_error_position : forall t p, front t = FSyntax p -> p <= length t.
Proof.
  intros t p. rewrite front_unfold. pose proof (front_good t) as H.
  destruct (front_res t); simpl in *; intros E; inversion E; subst; auto.
Qed.

Print Assumptions front_total.
Print Assumptions front_error_position.
