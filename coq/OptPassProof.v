(* OptPassProof.v — the modelled unroll pass (OptPass.v) only produces tables the validator accepts (grammars with
   distinct rule names, no rule on the SKIP identifier, e{m,n} only with m <= n). Before that, what all pass proofs
   share: an expression node and its operands (`cong`), tables related rule by rule (`rule_rel`). *)
From Coq Require Import List ZArith Bool Lia.
Import ListNotations.
From PP Require Import Base Syntax Spec SpecSyn SpecEquiv Opt OptProof OptPass OptPassSilent.
Open Scope nat_scope.

Lemma memN_In x : forall l, In x l -> memN x l = true.
Proof.
  induction l as [|y l IH]; intros H; [destruct H|]. cbn [memN]. destruct H as [->|H].
  - rewrite N.eqb_refl. reflexivity.
  - rewrite (IH H). apply orb_true_r.
Qed.

Lemma depths_In x : forall es, In x es -> depth x <= depths es.
Proof.
  induction es as [|y es IH]; intros H; [destruct H|].
  change (depths (y :: es)) with (Nat.max (depth y) (depths es)).
  destruct H as [->|H]; [lia|]. specialize (IH H). lia.
Qed.
Lemma depth_pos e : 1 <= depth e.
Proof. destruct e; cbn; lia. Qed.

Definition childless (e : expr) : bool :=
  match e with
  | ESeq _ | EAlt _ | EOpt _ | EStar _ | EPlus _ | ERepN _ _ | ERepMin _ _ | ERepMax _ _ | ERepMinMax _ _ _
  | EAnd _ | ENot _ | EGrp _ _ | EPush _ => false
  | _ => true
  end.

(* same node, operands related *)
Inductive cong (R : expr -> expr -> Prop) : expr -> expr -> Prop :=
| CG_leaf e : childless e = true -> cong R e e
| CG_seq a b : Forall2 R a b -> cong R (ESeq a) (ESeq b)
| CG_alt a b : Forall2 R a b -> cong R (EAlt a) (EAlt b)
| CG_opt a b : R a b -> cong R (EOpt a) (EOpt b)
| CG_star a b : R a b -> cong R (EStar a) (EStar b)
| CG_plus a b : R a b -> cong R (EPlus a) (EPlus b)
| CG_repn a b n : R a b -> cong R (ERepN a n) (ERepN b n)
| CG_repmin a b n : R a b -> cong R (ERepMin a n) (ERepMin b n)
| CG_repmax a b n : R a b -> cong R (ERepMax a n) (ERepMax b n)
| CG_repmm a b m n : R a b -> cong R (ERepMinMax a m n) (ERepMinMax b m n)
| CG_and a b : R a b -> cong R (EAnd a) (EAnd b)
| CG_not a b : R a b -> cong R (ENot a) (ENot b)
| CG_grp a b t : R a b -> cong R (EGrp a t) (EGrp b t)
| CG_push a b : R a b -> cong R (EPush a) (EPush b).

Lemma depth_ind (P : expr -> Prop) : (forall e, (forall a, depth a < depth e -> P a) -> P e) -> forall e, P e.
Proof.
  intros H. assert (A : forall n e, depth e < n -> P e).
  { induction n as [|n IH]; intros e L; [lia|]. apply H. intros a La. apply IH. lia. }
  intros e. exact (A (S (depth e)) e (le_n _)).
Qed.

Lemma depths_F2 (h : expr -> expr) es :
  Forall2 (fun a b => b = h a /\ depth a < S (depths es)) es (map h es).
Proof.
  assert (K : forall l, incl l es ->
            Forall2 (fun a b => b = h a /\ depth a < S (depths es)) l (map h l)).
  { induction l as [|x l IH]; intros Hin; constructor.
    - split; [reflexivity|]. pose proof (depths_In x es (Hin x (or_introl eq_refl))). lia.
    - apply IH. intros y Hy. apply Hin. right. exact Hy. }
  apply K, incl_refl.
Qed.

Lemma map_bu_node fn e : exists e1, map_bu fn e = fn e1 /\
  cong (fun a b => b = map_bu fn a /\ depth a < depth e) e e1.
Proof.
  destruct e; cbn [map_bu]; eexists; (split; [reflexivity|]);
    try (apply CG_leaf; reflexivity);
    (constructor; first [apply depths_F2 | (split; [reflexivity|cbn [depth]; lia])]).
Qed.

Lemma depths_self es : Forall2 (fun a b => b = a /\ depth a < S (depths es)) es es.
Proof. pose proof (depths_F2 (fun x => x) es) as L. rewrite map_id in L. exact L. Qed.

Lemma cong_self e : cong (fun a b => b = a /\ depth a < depth e) e e.
Proof.
  (* `solve`: CG_leaf fits every goal too and is tried first; the choice is settled goal by goal *)
  destruct e; try (apply CG_leaf; reflexivity);
    solve [constructor; first [apply depths_self | (split; [reflexivity|cbn [depth]; lia])]].
Qed.

Lemma sub_ok_cong p q (R : expr -> expr -> Prop) x y :
  (forall a b, R a b -> all_sub p a = true -> all_sub q b = true) ->
  cong R x y -> sub_ok p x = true -> sub_ok q y = true.
Proof.
  intros HR C.
  assert (L : forall a b, Forall2 R a b -> all_list p a = true -> all_list q b = true).
  { intros a b H. induction H as [|u v a b Huv _ IH]; [reflexivity|].
    cbn [all_list forallb]. intros K. apply andb_prop in K. destruct K as [K1 K2].
    rewrite (HR u v Huv K1). apply IH. exact K2. }
  destruct C; cbn [sub_ok]; try (apply L; assumption); try (apply HR; assumption).
  intros _. destruct e; try discriminate; reflexivity.
Qed.

Definition node_pred (p : expr -> bool) : Prop := forall R x y, cong R x y -> p y = p x.

Lemma all_sub_map_bu p q fn : node_pred p ->
  (forall x, p x = true -> sub_ok q x = true -> all_sub q (fn x) = true) ->
  forall e, all_sub p e = true -> all_sub q (map_bu fn e) = true.
Proof.
  intros Hp Hfn e. induction e as [e IH] using depth_ind. intros A.
  rewrite all_sub_eq in A. apply andb_prop in A. destruct A as [A1 A2].
  destruct (map_bu_node fn e) as [e1 [-> C]]. apply Hfn.
  - rewrite (Hp _ _ _ C). exact A1.
  - revert C A2. apply sub_ok_cong. intros a b [-> D]. apply IH. exact D.
Qed.

Lemma cong_eq x y : cong (fun a b => b = a) x y -> y = x.
Proof.
  intros C.
  assert (L : forall a b : list expr, Forall2 (fun a b => b = a) a b -> b = a).
  { intros a b H. induction H; [reflexivity|]. subst. reflexivity. }
  destruct C; try reflexivity; try (apply L in H); subst; reflexivity.
Qed.

Lemma cong_impl (R Q : expr -> expr -> Prop) x y : (forall a b, R a b -> Q a b) -> cong R x y -> cong Q x y.
Proof. intros H C. destruct C; constructor; eauto using Forall2_impl'. Qed.

Lemma cong_sub_ok p (R : expr -> expr -> Prop) x y :
  cong R x y -> sub_ok p x = true -> cong (fun a b => R a b /\ all_sub p a = true) x y.
Proof.
  intros C.
  assert (L : forall a b, Forall2 R a b -> all_list p a = true ->
              Forall2 (fun a b => R a b /\ all_sub p a = true) a b).
  { intros a b H. induction H as [|u v a b Huv _ IH]; [constructor|].
    cbn [all_list forallb]. intros K. apply andb_prop in K. destruct K as [K1 K2].
    constructor; [split; assumption|apply IH; exact K2]. }
  destruct C; cbn [sub_ok]; intros K; constructor; auto.
Qed.

Lemma map_bu_id p fn : (forall x, p x = true -> fn x = x) ->
  forall e, all_sub p e = true -> map_bu fn e = e.
Proof.
  intros Hfn e. induction e as [e IH] using depth_ind. intros A.
  rewrite all_sub_eq in A. apply andb_prop in A. destruct A as [A1 A2].
  destruct (map_bu_node fn e) as [e1 [-> C]].
  assert (E : e1 = e); [|rewrite E; apply Hfn; exact A1].
  apply cong_eq. apply (cong_sub_ok p) in C; [|exact A2]. revert C. apply cong_impl.
  intros a b [[-> D] Aa]. apply IH; assumption.
Qed.

Lemma unroll_seq es : unroll_bu (ESeq es) = ESeq (map unroll_bu es).          Proof. reflexivity. Qed.
Lemma unroll_alt es : unroll_bu (EAlt es) = EAlt (map unroll_bu es).          Proof. reflexivity. Qed.
Lemma unroll_star a : unroll_bu (EStar a) = EStar (unroll_bu a).              Proof. reflexivity. Qed.
Lemma unroll_plus a : unroll_bu (EPlus a) = ESeq [strip_grp (unroll_bu a); EStar (unroll_bu a)].
Proof. reflexivity. Qed.
Lemma unroll_repn a n : unroll_bu (ERepN a n) = ESeq (repeat (unroll_bu a) n). Proof. reflexivity. Qed.
Lemma unroll_repmin a n : unroll_bu (ERepMin a n) = ESeq (repeat (unroll_bu a) n ++ [EStar (unroll_bu a)]).
Proof. reflexivity. Qed.
Lemma unroll_repmax a n : unroll_bu (ERepMax a n) = ESeq (repeat (EOpt (unroll_bu a)) n).
Proof. reflexivity. Qed.
Lemma unroll_repmm a m n : unroll_bu (ERepMinMax a m n) =
  ESeq (repeat (unroll_bu a) m ++ repeat (EOpt (unroll_bu a)) (n - m)).
Proof. reflexivity. Qed.

(* the only way to obtain an untagged group is from an untagged group *)
Lemma strip_cases a : (exists x, a = EGrp x None) \/ strip_grp (unroll_bu a) = unroll_bu a.
Proof.
  destruct a; try (right; reflexivity).
  destruct tag as [t|]; [right; reflexivity|left; eexists; reflexivity].
Qed.

Definition no_rep (e : expr) : bool :=
  match e with EPlus _ | ERepN _ _ | ERepMin _ _ | ERepMax _ _ | ERepMinMax _ _ _ => false | _ => true end.

Lemma no_rep_node : node_pred no_rep.
Proof. intros R x y C. destruct C; reflexivity. Qed.

Lemma unroll1_no_rep x : no_rep x = true -> unroll1 x = x.
Proof. destruct x; try reflexivity; discriminate. Qed.

Lemma all_sub_strip q a : all_sub q a = true -> all_sub q (strip_grp a) = true.
Proof.
  destruct a; try (intros H; exact H). destruct tag; [intros H; exact H|].
  rewrite all_sub_eq. intros H. apply andb_prop in H. apply H.
Qed.

(* the nodes the pass adds are sequences, stars and options *)
Lemma all_sub_unroll1 q : (forall y, no_rep y = true -> q y = true) ->
  forall x, sub_ok q x = true -> all_sub q (unroll1 x) = true.
Proof.
  intros Hq x A.
  assert (W : forall y, no_rep y = true -> sub_ok q y = true -> all_sub q y = true).
  { intros y N S. rewrite all_sub_eq, (Hq y N). exact S. }
  destruct x; try (apply W; [reflexivity|exact A]); cbn [unroll1 sub_ok] in A |- *;
    (apply W; [reflexivity|]); cbn [sub_ok].
  - cbn [all_list forallb]. rewrite (all_sub_strip q x A), (W (EStar x) eq_refl A). reflexivity.
  - apply all_list_repeat. exact A.
  - rewrite all_list_app, all_list_repeat by exact A. cbn [all_list forallb].
    rewrite (W (EStar x) eq_refl A). reflexivity.
  - apply all_list_repeat. exact (W (EOpt x) eq_refl A).
  - rewrite all_list_app, !all_list_repeat; [reflexivity|exact (W (EOpt x) eq_refl A)|exact A].
Qed.

Section Expr.
Variables g g' : grammar.
Hypothesis Hdef : forall n, defined_in g' n = defined_in g n.

Lemma ref_ok n : defined_in g n || negb (defined_in g' n) = true.
Proof. rewrite Hdef. destruct (defined_in g n); reflexivity. Qed.

Lemma cong_ostep fl (R : expr -> expr -> Prop) toff x y : cong R x y -> ostep g g' fl R toff x y.
Proof.
  intros C. destruct C; try (constructor; assumption).
  destruct e; try discriminate; try (apply OS_leaf; reflexivity). apply OS_ref, ref_ok.
Qed.

Lemma cong_ochk (R : expr -> expr -> Prop) F toff x y :
  (forall a b, R a b -> ochk g g' F toff a b = true) -> cong R x y ->
  ochk g g' (S F) toff x y = true.
Proof.
  intros HR C. apply ochk_of_ostep. apply (cong_ostep F R toff) in C. revert C. apply ostep_mono; auto.
Qed.

Lemma ochk_refl : forall f toff e, depth e <= f -> ochk g g' f toff e e = true.
Proof.
  induction f as [|f IH]; intros toff e D; [pose proof (depth_pos e); lia|].
  eapply cong_ochk; [|exact (cong_self e)]. intros a b [-> Da]. apply IH. lia.
Qed.

Lemma ochk_unroll : forall f toff e, depth e <= f -> all_sub count_ok e = true ->
  ochk g g' f toff e (unroll_bu e) = true.
Proof.
  induction f as [|f IH]; intros toff e D C; [pose proof (depth_pos e); lia|].
  rewrite all_sub_eq in C. apply andb_prop in C. destruct C as [Cm C'].
  destruct (no_rep e) eqn:NR.
  - destruct (map_bu_node unroll1 e) as [e1 [E C1]]. unfold unroll_bu. rewrite E.
    rewrite unroll1_no_rep by (rewrite (no_rep_node _ _ _ C1); exact NR).
    apply (cong_sub_ok count_ok) in C1; [|exact C']. eapply cong_ochk; [|exact C1].
    intros a b [[-> Da] Ca]. apply IH; [lia|exact Ca].
  - (* `depth` counts a repetition twice: its operand is validated one level further down, under a star or option *)
    destruct e; try discriminate NR; cbn [depth sub_ok] in D, C'; apply ochk_of_ostep.
    + (* e+ : the first copy loses an untagged group *)
      rewrite unroll_plus. apply OS_plus_u; [|apply (IH toff (EStar e)); [cbn [depth]; lia|exact C']].
      destruct (strip_cases e) as [[x ->]|E].
      * right. apply (IH toff x); [cbn [depth] in D; lia|exact C'].
      * left. rewrite E. apply IH; [lia|exact C'].
    + rewrite unroll_repn. apply OS_repn_u; [apply repeat_length|].
      apply Forall_repeat, IH; [lia|exact C'].
    + rewrite unroll_repmin. apply OS_repmin_u; [apply repeat_length| |].
      * apply Forall_repeat, IH; [lia|exact C'].
      * apply (IH toff (EStar e)); [cbn [depth]; lia|exact C'].
    + rewrite unroll_repmax, (repeat_map EOpt). apply OS_repmax_u; [apply repeat_length|].
      apply Forall_repeat, IH; [lia|exact C'].
    + rewrite unroll_repmm, (repeat_map EOpt). apply Nat.leb_le in Cm.
      apply OS_repminmax_u; [apply repeat_length|rewrite repeat_length; lia| |];
        apply Forall_repeat, IH; solve [lia|exact C'].
Qed.

End Expr.

Lemma lookup_nodup : forall g r, names_nodup g = true -> In r g -> lookup g (r_name r) = Some r.
Proof.
  induction g as [|r0 g IH]; intros r ND H; [destruct H|].
  unfold names_nodup in ND. cbn [map nodupN] in ND. apply andb_prop in ND. destruct ND as [N1 N2].
  cbn [lookup]. destruct H as [->|H].
  - rewrite N.eqb_refl. reflexivity.
  - destruct (N.eqb (r_name r0) (r_name r)) eqn:E.
    + apply N.eqb_eq in E. rewrite E in N1.
      rewrite (memN_In (r_name r) (map r_name g) (in_map r_name g r H)) in N1. discriminate.
    + apply IH; assumption.
Qed.

Lemma gdepth_In : forall g r, In r g -> depth (r_body r) <= gdepth g.
Proof.
  induction g as [|r0 g IH]; intros r H; [destruct H|]. cbn [gdepth fold_right].
  destruct H as [->|H]; [lia|]. specialize (IH r H). unfold gdepth in IH. lia.
Qed.

Lemma lookup_F2 (R : rule -> rule -> Prop) : (forall r r', R r r' -> r_name r' = r_name r) ->
  forall g g', Forall2 R g g' -> forall n,
  match lookup g n, lookup g' n with
  | Some r, Some r' => R r r'
  | None, None => True
  | _, _ => False
  end.
Proof.
  intros Hn g g' H n. induction H as [|r r' g g' Hr _ IH]; [exact I|].
  cbn [lookup]. rewrite (Hn r r' Hr). destruct (N.eqb (r_name r) n); [exact Hr|exact IH].
Qed.

Definition heads_eq (r r' : rule) : Prop :=
  r_name r' = r_name r /\ r_silent r' = r_silent r /\ r_kind r' = r_kind r.

Lemma heads_lookup g g' : Forall2 heads_eq g g' -> forall n,
  match lookup g n, lookup g' n with
  | Some r, Some r' => heads_eq r r'
  | None, None => True
  | _, _ => False
  end.
Proof. apply lookup_F2. intros r r' H. apply H. Qed.

Lemma heads_names g g' : Forall2 heads_eq g g' -> map r_name g' = map r_name g.
Proof. intros H. induction H as [|r r' g g' [Hn _] _ IH]; [reflexivity|]. cbn [map]. rewrite Hn, IH. reflexivity. Qed.

Lemma heads_defined g g' : Forall2 heads_eq g g' -> forall n, defined_in g' n = defined_in g n.
Proof.
  intros H n. pose proof (heads_lookup g g' H n) as L. unfold defined_in.
  destruct (lookup g n), (lookup g' n); [reflexivity|destruct L|destruct L|reflexivity].
Qed.

Theorem heads_validated g g' F : names_nodup g = true -> defined_in g SKIP_ID = false ->
  Forall2 heads_eq g g' ->
  (forall n r r', lookup g n = Some r -> lookup g' n = Some r' ->
     forall toff, ochk g g' F toff (r_body r) (r_body r') = true) ->
  ochk_grammar g g' F = true.
Proof.
  intros ND NS Hh HB.
  assert (ND' : names_nodup g' = true) by (unfold names_nodup; rewrite (heads_names g g' Hh); exact ND).
  unfold ochk_grammar. rewrite NS. cbn [negb]. rewrite andb_true_r. apply andb_true_intro. split.
  - apply forallb_forall. intros r' Hr'. apply orb_true_intro. right. unfold ochk_rule.
    pose proof (lookup_nodup g' r' ND' Hr') as L'.
    pose proof (heads_lookup g g' Hh (r_name r')) as SL. rewrite L' in SL.
    destruct (lookup g (r_name r')) as [r|] eqn:L; [|contradiction]. destruct SL as [_ [A2 A3]].
    rewrite A2, A3, Bool.eqb_reflx, kind_eqb_refl. cbn [andb].
    exact (HB (r_name r') r r' L L' (trivia_off g r)).
  - apply forallb_forall. intros r Hr. rewrite (heads_defined g g' Hh). unfold defined_in.
    rewrite (lookup_nodup g r ND Hr). reflexivity.
Qed.

Definition rule_rel (Q : expr -> expr -> Prop) (r r' : rule) : Prop := heads_eq r r' /\ Q (r_body r) (r_body r').

Lemma rel_heads Q g g' : Forall2 (rule_rel Q) g g' -> Forall2 heads_eq g g'.
Proof. apply Forall2_impl'. intros r r' H. apply H. Qed.

Lemma heads_refl g : Forall2 heads_eq g g.
Proof. induction g as [|r g IH]; constructor; [repeat split; reflexivity|exact IH]. Qed.

Lemma heads_trans g1 g2 g3 : Forall2 heads_eq g1 g2 -> Forall2 heads_eq g2 g3 -> Forall2 heads_eq g1 g3.
Proof.
  intros H. revert g3. induction H as [|r1 r2 g1 g2 [A1 [A2 A3]] _ IH]; intros g3 K; inversion K; subst; constructor.
  - destruct H1 as [B1 [B2 B3]]. repeat split; congruence.
  - apply IH. assumption.
Qed.

Lemma update_rel g n b : Forall2 (rule_rel (fun a b' => b' = a \/ b' = b)) g (update g n b).
Proof.
  eapply Forall2_impl'; [|exact (Forall2_map _ g)]. intros r r' ->.
  destruct (N.eqb (r_name r) n); (split; [repeat split; reflexivity|]); [right|left]; reflexivity.
Qed.

Lemma update_heads g n b : Forall2 heads_eq g (update g n b).
Proof. exact (rel_heads _ _ _ (update_rel g n b)). Qed.

Lemma all_grammar_rel p (Q : expr -> expr -> Prop) g g' :
  (forall a b, Q a b -> all_sub p a = true -> all_sub p b = true) ->
  Forall2 (rule_rel Q) g g' -> all_grammar p g = true -> all_grammar p g' = true.
Proof.
  intros HQ H. unfold all_grammar. induction H as [|r r' g g' [_ Hb] _ IH]; [reflexivity|].
  cbn [forallb]. intros C. apply andb_prop in C. destruct C as [C1 C2].
  rewrite (HQ _ _ Hb C1). exact (IH C2).
Qed.

Theorem rel_validated Q g g' F : names_nodup g = true -> defined_in g SKIP_ID = false ->
  Forall2 (rule_rel Q) g g' ->
  (forall r b toff, In r g -> Q (r_body r) b -> ochk g g' F toff (r_body r) b = true) ->
  ochk_grammar g g' F = true.
Proof.
  intros ND NS H HQ. apply heads_validated; [exact ND|exact NS|exact (rel_heads Q g g' H)|].
  intros n r r' L L' toff.
  pose proof (lookup_F2 (rule_rel Q) (fun x y K => proj1 (proj1 K)) g g' H n) as K. rewrite L, L' in K.
  apply HQ; [exact (lookup_In g n r L)|apply K].
Qed.

Section Step.
Variable bi : N -> bool.
Variable fn : expr -> expr.          (* the node function of a POSTORDER step that ignores the table *)
Variable ok : expr -> bool.
Hypothesis Hfn : forall g g', (forall n, defined_in g' n = defined_in g n) ->
  forall f toff e, depth e <= f -> ok e = true -> ochk g g' f toff e (map_bu fn e) = true.

Lemma step_bu_rel g : Forall2 (rule_rel (fun a b => b = a \/ b = map_bu fn a)) g (step_bu bi fn g).
Proof.
  eapply Forall2_impl'; [|exact (Forall2_map _ g)]. intros r r' ->.
  destruct (bi (r_name r)); (split; [repeat split; reflexivity|]); [left|right]; reflexivity.
Qed.

Theorem step_bu_validated g : names_nodup g = true -> defined_in g SKIP_ID = false ->
  forallb (fun r => ok (r_body r)) g = true ->
  ochk_grammar g (step_bu bi fn g) (gdepth g) = true.
Proof.
  intros ND NS OK. pose proof (step_bu_rel g) as H.
  pose proof (heads_defined _ _ (rel_heads _ _ _ H)) as Hd.
  apply (rel_validated _ g _ _ ND NS H). intros r b toff Hr [->| ->].
  - apply (ochk_refl g _ Hd). exact (gdepth_In g r Hr).
  - apply Hfn; [exact Hd|exact (gdepth_In g r Hr)|]. rewrite forallb_forall in OK. exact (OK r Hr).
Qed.
End Step.

Theorem pass_unroll_validated bi g : names_nodup g = true -> defined_in g SKIP_ID = false ->
  all_grammar count_ok g = true ->
  ochk_grammar g (pass_unroll bi g) (gdepth g) = true.
Proof.
  intros ND NS C. unfold pass_unroll.
  exact (step_bu_validated bi unroll1 (all_sub count_ok) ochk_unroll g ND NS C).
Qed.

(* the table the unroll pass (as modelled; tied exactly to unroller.py) produces parses like the original *)
Theorem pass_unroll_sound bi g : names_nodup g = true -> defined_in g SKIP_ID = false ->
  all_grammar count_ok g = true ->
  forall rule input k, defined_in g rule = true ->
    (forall f r, parse g f rule input k = r -> r <> Fuel ->
       exists f', req (parse (pass_unroll bi g) f' rule input k) r) /\
    (forall f r, parse (pass_unroll bi g) f rule input k = r -> r <> Fuel ->
       exists f', req (parse g f' rule input k) r).
Proof.
  intros ND NS C. apply (ochk_sound g (pass_unroll bi g) (gdepth g)).
  apply pass_unroll_validated; assumption.
Qed.
