(* PairsApi.v — model of Pair.tokens(), Pairs.tokens() and Pairs.flatten() (src/pest/pairs.py)
   and their relation to the `chain` invariant of SpecWf.v. *)
From Coq Require Import List ZArith Lia.
Import ListNotations.
From PP Require Import Syntax SpecWf.

Inductive token := TStart (n : N) (p : N) | TEnd (n : N) (p : N).
Definition tpos (t : token) : N := match t with TStart _ p => p | TEnd _ p => p end.

(* Pair.tokens(): Start, the children's tokens, End *)
Fixpoint tokens_pair (p : pair) : list token :=
  match p with
  | Pair n s e kids _ =>
      TStart n s ::
      (fix go (ks : list pair) : list token :=
         match ks with [] => [] | k :: ks' => tokens_pair k ++ go ks' end) kids
      ++ [TEnd n e]
  end.

Fixpoint tokens (ps : list pair) : list token :=
  match ps with [] => [] | p :: ps' => tokens_pair p ++ tokens ps' end.

Lemma tokens_pair_eq n s e kids tag :
  tokens_pair (Pair n s e kids tag) = TStart n s :: tokens kids ++ [TEnd n e].
Proof.
  reflexivity.
Qed.

(* Pairs.flatten(): pre-order *)
Fixpoint flatten_pair (p : pair) : list (N * N * N) :=
  match p with
  | Pair n s e kids _ =>
      (n, s, e) ::
      (fix go (ks : list pair) : list (N * N * N) :=
         match ks with [] => [] | k :: ks' => flatten_pair k ++ go ks' end) kids
  end.

Fixpoint flatten (ps : list pair) : list (N * N * N) :=
  match ps with [] => [] | p :: ps' => flatten_pair p ++ flatten ps' end.

Lemma flatten_pair_eq n s e kids tag :
  flatten_pair (Pair n s e kids tag) = (n, s, e) :: flatten kids.
Proof.
  reflexivity.
Qed.

(* balanced Start/End stream: a stack machine over rule names *)
Fixpoint balanced_from (stk : list N) (ts : list token) : option (list N) :=
  match ts with
  | [] => Some stk
  | TStart n _ :: ts' => balanced_from (n :: stk) ts'
  | TEnd n _ :: ts' =>
      match stk with
      | m :: stk' => if N.eqb n m then balanced_from stk' ts' else None
      | [] => None
      end
  end.

Lemma balanced_app : forall a b stk stk',
  balanced_from stk a = Some stk' -> balanced_from stk (a ++ b) = balanced_from stk' b.
Proof.
  induction a as [|t a IH]; intros b stk stk' H; cbn in *.
  - inversion H. reflexivity.
  - destruct t as [n p|n p].
    + apply IH. exact H.
    + destruct stk as [|m stk0]; [discriminate|].
      destruct (N.eqb n m); [apply IH; exact H|discriminate].
Qed.

Fixpoint sorted_from (lo : N) (ts : list token) : Prop :=
  match ts with
  | [] => True
  | t :: ts' => (lo <= tpos t)%N /\ sorted_from (tpos t) ts'
  end.

Lemma sorted_app : forall a b lo mid,
  sorted_from lo a -> (forall t, In t a -> (tpos t <= mid)%N) -> (lo <= mid)%N ->
  sorted_from mid b -> sorted_from lo (a ++ b).
Proof.
  induction a as [|t a IH]; intros b lo mid Ha Hle Hlm Hb; cbn in *.
  - destruct b as [|t b]; [exact I|]. cbn in *. destruct Hb as [H1 H2]. split; [lia|exact H2].
  - destruct Ha as [H1 H2]. split; [exact H1|].
    eapply IH; [exact H2| |apply Hle; left; reflexivity|exact Hb].
    intros t' Ht'. apply Hle. right. exact Ht'.
Qed.

Section Facts.
Variable PN : N -> Prop.

Lemma tokens_chain : forall lo hi ps, chain PN lo hi ps ->
  (forall stk, balanced_from stk (tokens ps) = Some stk) /\
  sorted_from lo (tokens ps) /\ (forall t, In t (tokens ps) -> (lo <= tpos t <= hi)%N).
Proof.
  induction 1 as [lo hi H|lo hi name s e kids tag ps Hn H1 Hk IHk Hp IHp].
  - cbn. split; [reflexivity|split; [exact I|intros t []]].
  - destruct IHk as [Bk [Sk Ik]]. destruct IHp as [Bp [Sp Ip]].
    assert (Lk := chain_le _ _ _ _ Hk). assert (Lp := chain_le _ _ _ _ Hp).
    cbn [tokens]. rewrite tokens_pair_eq.
    split; [|split].
    + intros stk. cbn [app balanced_from].
      rewrite <- app_assoc.
      rewrite (balanced_app (tokens kids) _ (name :: stk) (name :: stk) (Bk _)).
      cbn [app balanced_from]. rewrite N.eqb_refl. apply Bp.
    + cbn [app sorted_from tpos]. split; [exact H1|].
      rewrite <- app_assoc.
      eapply (sorted_app (tokens kids) _ s e); [exact Sk| |exact Lk|].
      * intros t Ht. apply Ik in Ht. lia.
      * cbn [app sorted_from tpos]. split; [lia|].
        exact Sp.
    + intros t Ht. cbn [app] in Ht. destruct Ht as [<-|Ht]; [cbn; lia|].
      rewrite <- app_assoc in Ht. apply in_app_or in Ht. destruct Ht as [Ht|Ht].
      * apply Ik in Ht. lia.
      * cbn [app] in Ht. destruct Ht as [<-|Ht]; [cbn; lia|]. apply Ip in Ht. lia.
Qed.

(* flatten() is the list of Start tokens of tokens(), in order *)
Fixpoint starts (ts : list token) : list (N * N) :=
  match ts with
  | [] => []
  | TStart n p :: ts' => (n, p) :: starts ts'
  | TEnd _ _ :: ts' => starts ts'
  end.

Lemma starts_app a b : starts (a ++ b) = starts a ++ starts b.
Proof.
  induction a as [|t a IH]; [reflexivity|]. destruct t; cbn; rewrite IH; reflexivity.
Qed.

Lemma flatten_preorder : forall lo hi ps, chain PN lo hi ps ->
  map (fun x => (fst (fst x), snd (fst x))) (flatten ps) = starts (tokens ps).
Proof.
  induction 1 as [lo hi H|lo hi name s e kids tag ps Hn H1 Hk IHk Hp IHp]; [reflexivity|].
  cbn [flatten tokens]. rewrite flatten_pair_eq, tokens_pair_eq.
  rewrite map_app. cbn [map fst snd app starts].
  rewrite !starts_app. cbn [starts]. rewrite app_nil_r. rewrite IHk, IHp. reflexivity.
Qed.

End Facts.
