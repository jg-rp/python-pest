(* SpecWf.v — every result of the reference semantics is well-formed:
   positions stay inside [k, length input], the remaining text is the suffix at the
   position, the furthest-failure tracker stays in range, and the pairs of a successful
   evaluation form an ordered, nested, non-overlapping chain inside the consumed span. *)
From Coq Require Import List NArith ZArith Bool Lia.
Import ListNotations.
From PP Require Import Base Syntax Spec SpecSyn.

Section Chain.
Variable PN : N -> Prop.   (* admissible pair names *)

Inductive chain : N -> N -> list pair -> Prop :=
| Cnil lo hi : (lo <= hi)%N -> chain lo hi []
| Ccons lo hi name s e kids tag ps :
    PN name -> (lo <= s)%N -> chain s e kids -> chain e hi ps ->
    chain lo hi (Pair name s e kids tag :: ps).

Lemma chain_le lo hi ps : chain lo hi ps -> (lo <= hi)%N.
Proof. induction 1; lia. Qed.

Lemma chain_weaken lo hi ps : chain lo hi ps -> forall lo' hi', (lo' <= lo)%N -> (hi <= hi')%N ->
  chain lo' hi' ps.
Proof.
  induction 1 as [lo hi H|lo hi name s e kids tag ps Hn H1 Hk IHk Hp IHp]; intros lo' hi' A B.
  - constructor. lia.
  - constructor; [exact Hn|lia|exact Hk|]. apply IHp; lia.
Qed.

Lemma chain_app a b p : chain a b p -> forall c q, chain b c q -> chain a c (p ++ q).
Proof.
  induction 1 as [lo hi H|lo hi name s e kids tag ps Hn H1 Hk IHk Hp IHp]; intros c q Hq; cbn.
  - eapply chain_weaken; [exact Hq|lia|lia].
  - constructor; [exact Hn|exact H1|exact Hk|]. apply IHp. exact Hq.
Qed.

Lemma chain_single name s e kids tag : PN name -> chain s e kids -> chain s e [Pair name s e kids tag].
Proof. intros Hn H. constructor; [exact Hn|lia|exact H|]. constructor. lia. Qed.
End Chain.

Section Wf.
Variable g : grammar.
Variable input : text.
Variable k : nat.

Definition pos_ok (s : st) : Prop :=
  s_rest s = skipn (N.to_nat (s_pos s)) input /\ k <= N.to_nat (s_pos s) <= length input.

Definition trk_ok (t : trk) : Prop :=
  t_pos t = (-1)%Z \/ (Z.of_nat k <= t_pos t <= Z.of_nat (length input))%Z.

(* rule names of the grammar; names of non-silent rules *)
Definition RN (n : N) : Prop := exists r, lookup g n = Some r.
Definition PN (n : N) : Prop := exists r, lookup g n = Some r /\ r_silent r = false.
Definition tnames_ok (t : trk) : Prop := Forall RN (t_exp t) /\ Forall RN (t_unexp t).
Definition cok (c : ctx) : Prop := RN (c_rule c).

Definition inv (s : st) : Prop := pos_ok s /\ trk_ok (s_trk s) /\ tnames_ok (s_trk s).

Definition res_ok (s : st) (r : res) : Prop :=
  match r with
  | Ok s' ps => inv s' /\ (s_pos s <= s_pos s')%N /\ chain PN (s_pos s) (s_pos s') ps
  | Fail t => trk_ok t /\ tnames_ok t
  | _ => True
  end.

Lemma rest_length s : pos_ok s -> length (s_rest s) = length input - N.to_nat (s_pos s).
Proof. intros [H _]. rewrite H. apply skipn_length. Qed.

Lemma record_ok c b n s : RN n -> inv s -> trk_ok (record c b n s) /\ tnames_ok (record c b n s).
Proof.
  intros Hn [[_ Hp] [Ht [He Hu]]]. unfold record.
  destruct (_ || _); [split; [exact Ht|split; assumption]|].
  destruct (t_pos (s_trk s) <? Z.of_N (s_pos s))%Z.
  - destruct (Nat.odd _); (split; [right; cbn; lia|split; cbn; repeat constructor; exact Hn]).
  - destruct (Z.of_N (s_pos s) =? t_pos (s_trk s))%Z eqn:E; [|split; [exact Ht|split; assumption]].
    destruct (Nat.odd _); (split; [exact Ht|split; cbn; try assumption; apply Forall_addN; assumption]).
Qed.

Lemma inv_set_trk s t : inv s -> trk_ok t /\ tnames_ok t -> inv (set_trk s t).
Proof. intros [Hp _] Ht. split; [exact Hp|exact Ht]. Qed.
Lemma inv_push_tag tag s : inv s -> inv (push_tag tag s).
Proof. destruct tag; intros H; exact H. Qed.
Lemma inv_pop_tag tag s : inv s -> inv (pop_tag tag s).
Proof. destruct tag; intros H; exact H. Qed.
Lemma inv_trk s : inv s -> trk_ok (s_trk s) /\ tnames_ok (s_trk s).
Proof. intros [_ H]. exact H. Qed.

Lemma res_ok_start s s0 r : s_pos s0 = s_pos s -> res_ok s0 r -> res_ok s r.
Proof. intros E. unfold res_ok. rewrite E. exact (fun H => H). Qed.

Lemma ok_same s s' : inv s' -> s_pos s' = s_pos s -> res_ok s (Ok s' []).
Proof. intros Hs E. split; [exact Hs|rewrite E; split; [lia|constructor; lia]]. Qed.

Lemma ok_refl s : inv s -> res_ok s (Ok s []).
Proof. intros Hs. apply ok_same; [exact Hs|reflexivity]. Qed.

Lemma ok_set_trk s t : inv s -> trk_ok t /\ tnames_ok t -> res_ok s (Ok (set_trk s t) []).
Proof. intros Hs Ht. apply ok_same; [apply inv_set_trk; assumption|reflexivity]. Qed.

Lemma ok_moved s s' m : inv s -> moved s s' m -> res_ok s (Ok s' []).
Proof.
  intros [[Hr Hp] Ht] (Hm & Er & Ep & _ & Et). assert (L := rest_length s (conj Hr Hp)).
  unfold res_ok, inv, pos_ok. rewrite Et, Er, Ep.
  split; [split; [split|exact Ht]|split; [lia|constructor; lia]].
  - rewrite Hr at 1. rewrite skipn_skipn_add. f_equal. lia.
  - lia.
Qed.

Lemma ok_app s s1 s2 p1 p2 :
  res_ok s (Ok s1 p1) -> res_ok s1 (Ok s2 p2) -> res_ok s (Ok s2 (p1 ++ p2)).
Proof.
  intros [_ [L1 C1]] [I2 [L2 C2]]. split; [exact I2|split; [lia|eapply chain_app; eassumption]].
Qed.

Definition sound_at (f : nat) : Prop :=
  forall c t s, cok c -> inv s -> res_ok s (run g f c t s).

Lemma skip_sound f : sound_at f -> forall c s, cok c -> inv s ->
  res_ok s (skip_with g (fun c' e' => run g f c' (TEval e')) c s).
Proof.
  intros IH c s Hc Hs. apply skip_with_case; [apply ok_refl; exact Hs|].
  intros e _. apply IH; assumption.
Qed.

Lemma ref_ok_defined : forall f c n tag s s1 ps,
  run g f c (TEval (ERef n tag)) s = Ok s1 ps -> RN n.
Proof.
  intros f c n tag s s1 ps H. destruct f as [|f]; [discriminate|]. cbn [run] in H.
  destruct (lookup g n) as [r|] eqn:E; [exists r; exact E|discriminate].
Qed.

Lemma finish_rule_ok c n r s s1 kids : lookup g n = Some r ->
  res_ok s (Ok s1 kids) ->
  res_ok s (Ok (fst (finish_rule c r (s_pos s) s1 kids)) (snd (finish_rule c r (s_pos s) s1 kids))).
Proof.
  intros EL [I1 [L1 C1]]. unfold finish_rule.
  destruct (r_silent r) eqn:ES; [exact (conj I1 (conj L1 C1))|].
  destruct (visible c r); cbn [fst snd]; (split; [exact I1|split; [exact L1|]]); [|exact C1].
  apply chain_single; [|exact C1]. exists r. rewrite (lookup_name _ _ _ EL). split; assumption.
Qed.

Lemma sound_all : forall f, sound_at f.
Proof.
  induction f as [|f IH]; intros c t s Hc Hs; [exact I|].
  assert (IHk := skip_sound f IH).
  assert (TRK := inv_trk s Hs).
  destruct t as [e|es|es|e].
  - destruct (unroll e) as [t|] eqn:U.
    { rewrite (run_unroll g e t U). apply IH; assumption. }
    destruct (terminal e) eqn:T.
    { assert (R := run_terminal g e T f c s).
      destruct (run g (S f) c (TEval e) s) as [s' ps|t| |]; [| |exact I..].
      - destruct R as [-> [m [M _]]]. exact (ok_moved s s' m Hs M).
      - destruct R as [-> | ->]; [exact TRK|apply record_ok; assumption]. }
    destruct e; try discriminate; cbn [run].
    + destruct (lookup g n) as [r|] eqn:EL; [|exact I].
      assert (Hr : cok (rule_ctx c r)) by (exists r; cbn; rewrite (lookup_name _ _ _ EL); exact EL).
      next_run IH IHk R; try exact (R Hr (inv_push_tag tag s Hs)).
      specialize (R Hr (inv_push_tag tag s Hs)).
      apply (res_ok_start s) in R; [|destruct tag; reflexivity].
      apply (finish_rule_ok c n r s _ _ EL) in R.
      destruct (finish_rule _ _ _ _ _) as [s2 ps]. destruct tag; exact R.
    + (* EOpt *) next_run IH IHk R; try exact (R Hc Hs). exact (ok_set_trk s _ Hs (R Hc Hs)).
    + (* EStar *) next_run IH IHk R1; try exact I.
      * specialize (R1 Hc Hs).
        next_run IH IHk R2; try exact (R2 Hc (proj1 R1)). exact (ok_app _ _ _ _ _ R1 (R2 Hc (proj1 R1))).
      * exact (ok_set_trk s _ Hs (R1 Hc Hs)).
    + (* EAnd *) next_run IH IHk R; try exact (R Hc Hs).
      exact (ok_set_trk s _ Hs (inv_trk _ (proj1 (R Hc Hs)))).
    + assert (R := IH (neg_ctx c) (TEval e) s Hc Hs).
      destruct (run g f (neg_ctx c) (TEval e) s) as [s1 p1|t| |] eqn:ER; try exact I.
      * apply record_ok.
        -- destruct e; try exact Hc. eapply ref_ok_defined. exact ER.
        -- apply inv_set_trk; [exact Hs|exact (inv_trk _ (proj1 R))].
      * exact (ok_set_trk s t Hs R).
    + (* EGrp *) next_run IH IHk R; try exact (R Hc (inv_push_tag tag s Hs)).
      specialize (R Hc (inv_push_tag tag s Hs)). destruct tag; exact R.
    + (* EPush *) next_run IH IHk R; exact (R Hc Hs).
  - (* TSeq *) cbn [run]. destruct es as [|e1 es']; [apply ok_refl; exact Hs|].
    next_run IH IHk R1; try exact (R1 Hc Hs). specialize (R1 Hc Hs).
    destruct es' as [|e2 es'']; [exact R1|].
    next_run IH IHk R2; try exact (R2 Hc (proj1 R1)). specialize (R2 Hc (proj1 R1)).
    next_run IH IHk R3; try exact (R3 Hc (proj1 R2)). specialize (R3 Hc (proj1 R2)).
    exact (ok_app _ _ _ _ _ R1 (ok_app _ _ _ _ _ R2 R3)).
  - (* TAlt *) cbn [run]. destruct es as [|e1 es']; [exact TRK|].
    assert (R1 := IH c (TEval e1) s Hc Hs).
    destruct (run g f c (TEval e1) s) as [s1 p1|t| |]; try exact R1.
    apply (IH c (TAlt es') (set_trk s t) Hc). apply inv_set_trk; [exact Hs|exact R1].
  - (* TStar *) cbn [run].
    next_run IH IHk R1; try exact (R1 Hc Hs). specialize (R1 Hc Hs).
    next_run IH IHk R2; try exact I.
    + specialize (R2 Hc (proj1 R1)).
      next_run IH IHk R3; try exact (R3 Hc (proj1 R2)). specialize (R3 Hc (proj1 R2)).
      exact (ok_app _ _ _ _ _ R1 (ok_app _ _ _ _ _ R2 R3)).
    + exact (ok_set_trk s _ Hs (R2 Hc (proj1 R1))).
Qed.

Lemma st0_inv : k <= length input -> inv (st0 input k).
Proof.
  intros Hk. split; [split|split; [left; reflexivity|split; constructor]]; cbn.
  - rewrite Nat2N.id. reflexivity.
  - rewrite Nat2N.id. lia.
Qed.

(* the start rule is looked up first, so the arbitrary rule name of the initial context is
   never recorded *)
Theorem parse_sound : forall f rule, k <= length input ->
  res_ok (st0 input k) (parse g f rule input k).
Proof.
  intros f rule Hk. unfold parse, eval.
  destruct f as [|f]; [exact I|].
  destruct (lookup g rule) as [r|] eqn:EL.
  - (* replay the ERef step with a context whose rule name is defined *)
    assert (E : run g (S f) ctx0 (TEval (ERef rule None)) (st0 input k)
              = run g (S f) {| c_atom := NonAtomic; c_rule := rule; c_neg := 0; c_sup := false |}
                  (TEval (ERef rule None)) (st0 input k)).
    { cbn [run]. rewrite EL. reflexivity. }
    rewrite E. apply sound_all; [exists r; exact EL|apply st0_inv; exact Hk].
  - cbn [run]. rewrite EL. exact I.
Qed.

Theorem parse_single_root : forall f rule r s' ps,
  lookup g rule = Some r -> r_silent r = false ->
  parse g f rule input k = Ok s' ps ->
  exists kids tag, ps = [Pair rule (N.of_nat k) (s_pos s') kids tag].
Proof.
  intros f rule r s' ps EL ES H. unfold parse, eval in H.
  destruct f as [|f]; [discriminate|]. cbn [run] in H. rewrite EL in H.
  destruct (run g f _ (TEval (r_body r)) _) as [s1 kids|t| |]; try discriminate.
  unfold finish_rule in H. rewrite ES in H.
  assert (V : visible ctx0 r = true).
  { unfold visible. rewrite ES. cbn. destruct (r_kind r); reflexivity. }
  rewrite V in H. cbn in H. inversion H; subst.
  rewrite (lookup_name _ _ _ EL). eexists. eexists. reflexivity.
Qed.

End Wf.
