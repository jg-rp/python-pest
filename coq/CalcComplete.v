From Coq Require Import List NArith Bool Arith Lia.
Import ListNotations.
From PP Require Import Base Syntax Spec GrammarsCalc Pratt PrattProof.
From PP Require Import JsonComplete.

(* Completeness of examples/calculator/calculator.pest (calc_grammar):
   every well-formed expression text is parsed into exactly its token stream, and that
   stream is one the Pratt parser of Pratt.v consumes entirely. *)

Open Scope N_scope.

Inductive ctok :=
| CInt (ds : text) | CId (cs : text) | CGroup (inner : list ctok) | CNeg | CFac | CInf (o : nat).

Definition is_alpha (c : N) : bool := ((97 <=? c) && (c <=? 122)) || ((65 <=? c) && (c <=? 90)).

(* one digit, or a non-zero digit followed by at least one digit *)
Definition wf_cint (ds : text) : bool :=
  match ds with
  | [] => false
  | [d] => is_digit d
  | d :: ds' => is_nzdigit d && forallb is_digit ds'
  end.

Definition wf_cid (cs : text) : bool := nonempty cs && forallb is_alpha cs.

(* the shape  prefix* primary postfix* (infix prefix* primary postfix* )*  as a two-state
   machine: st = false: an operand is expected; st = true: an operand has just been completed *)
Definition wf_list (wt : ctok -> bool) : bool -> list ctok -> bool :=
  fix go (st : bool) (l : list ctok) {struct l} : bool :=
    match l with
    | [] => st
    | t :: r =>
        if st then
          match t with
          | CFac => go true r
          | CInf o => (o <? 5)%nat && go false r
          | _ => false
          end
        else
          match t with
          | CNeg => go false r
          | CInt _ | CId _ | CGroup _ => wt t && go true r
          | _ => false
          end
    end.

Fixpoint wf_tok (t : ctok) : bool :=
  match t with
  | CInt ds => wf_cint ds
  | CId cs => wf_cid cs
  | CGroup inner => wf_list wf_tok false inner
  | CNeg | CFac => true
  | CInf o => (o <? 5)%nat
  end.

Definition wf_ctoks (ts : list ctok) : bool := wf_list wf_tok false ts.

(* operator characters and rule ids, in the order of `infix`: add sub mul div pow *)
Definition opc (o : nat) : N :=
  match o with 0%nat => 43 | 1%nat => 45 | 2%nat => 42 | 3%nat => 47 | _ => 94 end.
Definition opn (o : nat) : N :=
  match o with 0%nat => 19 | 1%nat => 18 | 2%nat => 17 | 3%nat => 16 | _ => 15 end.

(* renderings: arbitrary whitespace between adjacent tokens, after "(" and before ")" *)
Inductive crenders : list ctok -> text -> Prop :=
| CR_nil : crenders [] []
| CR_one t x : crenders_tok t x -> crenders [t] x
| CR_cons t t' ts x w y :
    crenders_tok t x -> ws w -> crenders (t' :: ts) y -> crenders (t :: t' :: ts) (x ++ w ++ y)
with crenders_tok : ctok -> text -> Prop :=
| CT_int ds : crenders_tok (CInt ds) ds
| CT_id cs : crenders_tok (CId cs) cs
| CT_neg : crenders_tok CNeg [45]
| CT_fac : crenders_tok CFac [33]
| CT_inf o : crenders_tok (CInf o) [opc o]
| CT_group inner w1 x w2 :
    ws w1 -> crenders inner x -> ws w2 ->
    crenders_tok (CGroup inner) (40 :: w1 ++ x ++ w2 ++ [41]).

Inductive crenders_doc : list ctok -> text -> Prop :=
| CR_doc ts w1 x w2 : ws w1 -> crenders ts x -> ws w2 -> crenders_doc ts (w1 ++ x ++ w2).

(* one child per token.  The nested `expr` pair (10) of a group spans a rendering of the inner
   stream followed by the whitespace pest's implicit skip consumed before `postfix*` / the
   infix tail found nothing more (possibly none): that is what pest delivers. *)
Inductive ctsk : ctok -> sk -> Prop :=
| S_int ds : ctsk (CInt ds) (SK 6 ds [])
| S_id cs : ctsk (CId cs) (SK 4 cs [])
| S_neg : ctsk CNeg (SK 13 [45] [])
| S_fac : ctsk CFac (SK 11 [33] [])
| S_inf o : ctsk (CInf o) (SK (opn o) [opc o] [])
| S_group inner x w kids :
    crenders inner x -> ws w -> Forall2 ctsk inner kids ->
    ctsk (CGroup inner) (SK 10 (x ++ w) kids).

(* program (21) spans the whole input and contains the expr pair and EOI (3) *)
Definition cmirrors (input : text) (ts : list ctok) (tree : list pair) : Prop :=
  exists top, map (skel input) tree = [SK 21 input [top; SK 3 [] []]] /\ ctsk (CGroup ts) top.

(* the Pratt view of a stream: groups, ints and idents are primaries (indexed by position) *)
Fixpoint ptoks_from (i : nat) (ts : list ctok) : list tok :=
  match ts with
  | [] => []
  | t :: r =>
      match t with
      | CNeg => KPre 0
      | CFac => KPost 0
      | CInf o => KInf o
      | _ => KPrim i
      end :: ptoks_from (S i) r
  end.
Definition ptoks (ts : list ctok) : list tok := ptoks_from 0 ts.

(* the same, read off the children of an `expr` skeleton *)
Definition tok_of_sk (i : nat) (k : sk) : tok :=
  match k with
  | SK n _ _ =>
      if n =? 13 then KPre 0 else if n =? 11 then KPost 0
      else if n =? 19 then KInf 0 else if n =? 18 then KInf 1 else if n =? 17 then KInf 2
      else if n =? 16 then KInf 3 else if n =? 15 then KInf 4 else KPrim i
  end.
Fixpoint toks_from (i : nat) (ks : list sk) : list tok :=
  match ks with [] => [] | k :: r => tok_of_sk i k :: toks_from (S i) r end.
Definition toks_of (ks : list sk) : list tok := toks_from 0 ks.

Lemma wf_list_all : forall ts st, wf_list wf_tok st ts = true -> forallb wf_tok ts = true.
Proof.
  induction ts as [|t ts IH]; intros st H; [reflexivity|].
  cbn [wf_list] in H. cbn [forallb]. apply andb_true_intro.
  destruct st, t; try discriminate H; try (apply andb_prop in H; destruct H as [Ht H]);
    (split; [first [exact Ht|reflexivity]|exact (IH _ H)]).
Qed.

Lemma tok_of_ctsk t k i r : ctsk t k -> wf_tok t = true ->
  tok_of_sk i k :: ptoks_from (S i) r = ptoks_from i (t :: r).
Proof.
  intros Hk H. destruct Hk; try reflexivity.
  cbn [wf_tok] in H. apply Nat.ltb_lt in H. destruct o as [|[|[|[|[|o]]]]]; [reflexivity..|lia].
Qed.

Lemma toks_of_ptoks : forall ts kids st i, wf_list wf_tok st ts = true ->
  Forall2 ctsk ts kids -> toks_from i kids = ptoks_from i ts.
Proof.
  intros ts kids st i Hw HF. apply wf_list_all in Hw. revert i.
  induction HF as [|t k ts kids Hk _ IH]; intros i; [reflexivity|].
  cbn [forallb] in Hw. apply andb_prop in Hw. destruct Hw as [H1 H2].
  cbn [toks_from]. rewrite (IH H2). apply tok_of_ctsk; assumption.
Qed.

Lemma wf_list_wfs : forall ts i,
  (wf_list wf_tok false ts = true -> wfs (ptoks_from i ts)) /\
  (wf_list wf_tok true ts = true -> wfo (ptoks_from i ts)).
Proof.
  induction ts as [|t ts IH]; intros i; split; intros H; cbn [wf_list ptoks_from] in *;
    [discriminate|constructor|..];
    destruct t; try discriminate; try (apply andb_prop in H; destruct H as [_ H]);
    constructor; apply IH; exact H.
Qed.

Theorem calc_stream_wellformed : forall ts, wf_ctoks ts = true -> wfs (ptoks ts).
Proof. intros ts H. apply (wf_list_wfs ts 0). exact H. Qed.

(* for ANY operator table the Pratt parser consumes the whole stream and builds the canonical
   tree, whose in-order yield is the stream *)
Theorem calc_pratt_total : forall tb ts, wf_ctoks ts = true ->
  exists f t, Pratt.parse_expr tb f (ptoks ts) 0 = Some (t, []) /\ canon tb 0 t /\ yield t = ptoks ts.
Proof.
  intros tb ts H.
  destruct (consumes_all tb (ptoks ts) (calc_stream_wellformed ts H)) as [f [t E]].
  exists f, t. split; [exact E|]. split.
  - exact (parse_expr_canon tb f _ _ _ _ E).
  - pose proof (parse_expr_yield tb f _ _ _ _ E) as Y. rewrite app_nil_r in Y. exact Y.
Qed.

Notation CG := calc_grammar.

Definition alpha_body := EAlt [ERange 97 122; ERange 65 90].
Definition ident_body := EPlus (ERef 5 None).
Definition int_body := EGrp (EAlt [ESeq [ERef 7 None; EPlus (ERef 8 None)]; ERef 8 None]) None.
Definition primary_body := EAlt [ERef 6 None; ESeq [EStr [40]; ERef 10 None; EStr [41]]; ERef 4 None].
Definition infix_body := EAlt [ERef 19 None; ERef 18 None; ERef 17 None; ERef 16 None; ERef 15 None].
Definition e_pfx := EStar (ERef 14 None).
Definition e_pst := EStar (ERef 12 None).
Definition e_tail := EGrp (ESeq [ERef 20 None; e_pfx; ERef 9 None; e_pst]) None.
Definition expr_body := ESeq [e_pfx; ERef 9 None; e_pst; EStar e_tail].
Definition program_body := ESeq [ERef 22 None; ERef 10 None; ERef 3 None].
Definition cws_body := EAlt [EStr [32]; EStr [9]; ERef 23 None].
Definition nl_body := EAlt [EStr [10]; EStr [13; 10]; EStr [13]].

Lemma ck_ws : lookup CG 0 = Some (mkrule 0 true KNormal cws_body). Proof. reflexivity. Qed.
Lemma ck_eoi : lookup CG 3 = Some (mkrule 3 false KNormal EEoi). Proof. reflexivity. Qed.
Lemma ck_ident : lookup CG 4 = Some (mkrule 4 false KAtomic ident_body). Proof. reflexivity. Qed.
Lemma ck_alpha : lookup CG 5 = Some (mkrule 5 true KNormal alpha_body). Proof. reflexivity. Qed.
Lemma ck_int : lookup CG 6 = Some (mkrule 6 false KAtomic int_body). Proof. reflexivity. Qed.
Lemma ck_nzdigit : lookup CG 7 = Some (mkrule 7 true KNormal (ERange 49 57)). Proof. reflexivity. Qed.
Lemma ck_digit : lookup CG 8 = Some (mkrule 8 true KNormal (ERange 48 57)). Proof. reflexivity. Qed.
Lemma ck_primary : lookup CG 9 = Some (mkrule 9 true KNormal primary_body). Proof. reflexivity. Qed.
Lemma ck_expr : lookup CG 10 = Some (mkrule 10 false KNormal expr_body). Proof. reflexivity. Qed.
Lemma ck_fac : lookup CG 11 = Some (mkrule 11 false KNormal (EStr [33])). Proof. reflexivity. Qed.
Lemma ck_postfix : lookup CG 12 = Some (mkrule 12 true KNormal (ERef 11 None)). Proof. reflexivity. Qed.
Lemma ck_neg : lookup CG 13 = Some (mkrule 13 false KNormal (EStr [45])). Proof. reflexivity. Qed.
Lemma ck_prefix : lookup CG 14 = Some (mkrule 14 true KNormal (ERef 13 None)). Proof. reflexivity. Qed.
Lemma ck_pow : lookup CG 15 = Some (mkrule 15 false KNormal (EStr [94])). Proof. reflexivity. Qed.
Lemma ck_div : lookup CG 16 = Some (mkrule 16 false KNormal (EStr [47])). Proof. reflexivity. Qed.
Lemma ck_mul : lookup CG 17 = Some (mkrule 17 false KNormal (EStr [42])). Proof. reflexivity. Qed.
Lemma ck_sub : lookup CG 18 = Some (mkrule 18 false KNormal (EStr [45])). Proof. reflexivity. Qed.
Lemma ck_add : lookup CG 19 = Some (mkrule 19 false KNormal (EStr [43])). Proof. reflexivity. Qed.
Lemma ck_infix : lookup CG 20 = Some (mkrule 20 true KNormal infix_body). Proof. reflexivity. Qed.
Lemma ck_program : lookup CG 21 = Some (mkrule 21 false KNormal program_body). Proof. reflexivity. Qed.
Lemma ck_soi : lookup CG 22 = Some (mkrule 22 true KNormal ESoi). Proof. reflexivity. Qed.
Lemma ck_nl : lookup CG 23 = Some (mkrule 23 true KNormal nl_body). Proof. reflexivity. Qed.
Lemma calc_skip : skip_expr CG = Some (EStar (ERef 0 None)). Proof. reflexivity. Qed.

Lemma C_rule_fail c n s b pre r :
  lookup CG n = Some (mkrule n s KNormal b) ->
  F CG (rctx c n s b) (TEval b) pre r -> F CG c (TEval (ERef n None)) pre r.
Proof. intros L H. eapply F_ref; [exact L|exact H]. Qed.

(* implicit whitespace: " " | "\t" | "\n" | "\r\n" | "\r" *)

Lemma F_cws1 : rejects CG (ERef 0 None) nows.
Proof.
  apply (rej_ref CG _ _ _ ck_ws). apply rej_alt. repeat constructor; try (apply rej_str; reflexivity).
  apply (rej_ref CG _ _ _ ck_nl). apply rej_alt. repeat constructor; apply rej_str; reflexivity.
Qed.

Section CWS.
Variable c : ctx.

Lemma M_nl pre x post :
  x = [10] \/ x = [13; 10] \/ (x = [13] /\ hdP (fun d => negb (d =? 10)) post = true) ->
  M CG c (TEval (ERef 0 None)) pre x post [].
Proof.
  intros H. apply (M_sref CG c 0 _ _ pre x post [] ck_ws). apply M_alt.
  apply Ma_next; [apply F_str; destruct H as [->|[->|[-> _]]]; reflexivity|].
  apply Ma_next; [apply F_str; destruct H as [->|[->|[-> _]]]; reflexivity|].
  apply Ma_first. apply (M_sref CG _ 23 _ _ pre x post [] ck_nl). apply M_alt.
  destruct H as [->|[->|[-> H]]].
  - apply Ma_first. apply M_str.
  - apply Ma_next; [apply F_str; reflexivity|]. apply Ma_first. apply M_str.
  - apply Ma_next; [apply F_str; reflexivity|]. apply Ma_next; [|apply Ma_first; apply M_str].
    apply F_str. destruct post as [|d post]; [reflexivity|]. cbn [app strip_prefix hdP] in *.
    apply negb_true_iff in H. rewrite N.eqb_refl, (N.eqb_sym 10 d), H. reflexivity.
Qed.

Lemma M_sp pre d post : d = 32 \/ d = 9 -> M CG c (TEval (ERef 0 None)) pre [d] post [].
Proof.
  intros H. apply (M_sref CG c 0 _ _ pre [d] post [] ck_ws). apply M_alt. destruct H as [->| ->].
  - apply Ma_first. apply M_str.
  - apply Ma_next; [apply F_str; reflexivity|]. apply Ma_first. apply M_str.
Qed.

(* CR takes a following LF with it *)
Lemma cws_step d w : ws (d :: w) ->
  piece CG c (ERef 0 None) ws (fun r => hdP nows r = true) d w.
Proof.
  intros H. apply ws_cons in H. destruct H as [H1 H2].
  destruct (is_ws_cases d H1) as [-> | [-> | [-> | ->]]].
  - apply piece_char; [exact H2|]. intros. apply M_sp. tauto.
  - apply piece_char; [exact H2|]. intros. apply M_sp. tauto.
  - destruct w as [|e w]; [|destruct (N.eqb_spec e 10) as [->|He]].
    + apply piece_char; [reflexivity|]. intros pre post Hp. apply M_nl. right. right. split; [reflexivity|].
      revert Hp. apply hdP_imp. intros q Hq. destruct (N.eqb_spec q 10) as [->|_]; [discriminate|reflexivity].
    + apply ws_cons in H2. exists [13; 10], w. split; [reflexivity|]. split; [cbn; lia|]. split; [apply H2|].
      intros pre post _. apply M_nl. tauto.
    + apply piece_char; [exact H2|]. intros. apply M_nl. right. right. split; [reflexivity|].
      cbn [app hdP]. apply negb_true_iff. apply N.eqb_neq. exact He.
  - apply piece_char; [exact H2|]. intros. apply M_nl. tauto.
Qed.

Hypothesis Hc : c_atom c <> NonAtomic.

Lemma M_cwsstar w pre post : ws w -> hdP nows post = true ->
  M CG c (TEval (EStar (ERef 0 None))) pre w post [].
Proof.
  apply (M_star_pieces CG c (ERef 0 None) ws (fun r => hdP nows r = true) Hc cws_step).
  intros pre' post'. apply F_cws1.
Qed.

End CWS.

Lemma MS_cws c pre w post : c_atom c = NonAtomic -> ws w -> hdP nows post = true ->
  MS CG c pre w post.
Proof.
  intros Hc Hw Hp. unfold MS. eapply SKo_expr; [exact Hc|exact calc_skip|].
  apply M_cwsstar; [cbn; discriminate|exact Hw|exact Hp].
Qed.

Definition nalpha (d : N) : bool := negb (is_alpha d).

Lemma F_cint : rejects CG (ERef 6 None) nf0.
Proof.
  apply (rej_ref CG _ _ _ ck_int). apply rej_grp. apply rej_alt.
  repeat constructor; [apply rej_seq; exact (F_nzdigit CG 7 ck_nzdigit)|exact (F_digit CG 8 ck_digit)].
Qed.

Lemma nalpha_ranges d : nalpha d = true ->
  (97 <=? d) && (d <=? 122) = false /\ (65 <=? d) && (d <=? 90) = false.
Proof.
  unfold nalpha, is_alpha. intros H. apply negb_true_iff in H. apply orb_false_iff in H. exact H.
Qed.

Lemma F_calpha : rejects CG (ERef 5 None) nalpha.
Proof.
  apply (rej_ref CG _ _ _ ck_alpha). apply rej_alt.
  repeat constructor; apply rej_range; intros d H; apply (nalpha_ranges d H).
Qed.

Section CLex.
Variable c : ctx.
Hypothesis Hc : c_atom c = Atomic.

Let Hna : c_atom c <> NonAtomic.
Proof. rewrite Hc. discriminate. Qed.

Lemma M_int_body ds pre post : wf_cint ds = true -> hdP nf0 post = true ->
  M CG c (TEval int_body) pre ds post [].
Proof.
  intros H Hp. unfold int_body. apply M_grp. apply M_alt.
  destruct ds as [|d [|d2 ds]]; [discriminate| |]; cbn [wf_cint] in H.
  - (* a single digit: the first alternative fails, at the digit or right after it *)
    apply Ma_next; [|apply Ma_first; apply (M_digit CG 8 ck_digit); exact H].
    apply F_seq. destruct (is_nzdigit d) eqn:E.
    + apply (Fs_later_a CG [d] []);
        [exact Hna|apply (M_nzdigit CG 7 ck_nzdigit); exact E|].
      apply Fs_first. apply F_plus. apply F_seq. apply Fs_first. apply (F_digit CG 8 ck_digit). exact Hp.
    + apply Fs_first. eapply F_ref; [exact ck_nzdigit|]. apply F_range. exact E.
  - apply andb_prop in H. destruct H as [H1 H2].
    apply Ma_first. apply M_seq.
    apply (Ms_cons_a CG [d] (d2 :: ds) [] []);
      [exact Hna|apply (M_nzdigit CG 7 ck_nzdigit); exact H1|].
    apply Ms_one. apply (M_digits1 CG 8 ck_digit c Hna); [exact H2|exact Hp].
Qed.

Lemma M_calpha pre d post : is_alpha d = true -> M CG c (TEval (ERef 5 None)) pre [d] post [].
Proof.
  intros H. apply (M_sref CG c 5 _ _ pre [d] post [] ck_alpha). apply M_alt.
  unfold is_alpha in H. destruct ((97 <=? d) && (d <=? 122)) eqn:E1.
  - apply Ma_first. apply M_range. exact E1.
  - apply Ma_next; [apply F_range; exact E1|]. apply Ma_first. apply M_range. exact H.
Qed.

Lemma M_ident_body cs pre post : wf_cid cs = true -> hdP nalpha post = true ->
  M CG c (TEval ident_body) pre cs post [].
Proof.
  intros H. destruct cs as [|d cs]; [discriminate|]. revert H.
  apply (M_plus_class CG c (ERef 5 None) is_alpha (fun r => hdP nalpha r = true) Hna).
  - intros pre0 d0 post0. apply M_calpha.
  - intros pre0 post0. apply F_calpha.
Qed.

End CLex.

Theorem int_complete c ds pre post : c_atom c = NonAtomic -> wf_cint ds = true ->
  hdP nf0 post = true ->
  M CG c (TEval (ERef 6 None)) pre ds post [Pair 6 (lenN pre) (lenN (pre ++ ds)) [] None].
Proof.
  intros Hc H Hp. apply (M_vref CG c 6 false KAtomic int_body pre ds post [] ck_int (na_not_atomic c Hc)).
  apply M_int_body; [reflexivity|exact H|exact Hp].
Qed.

Theorem ident_complete c cs pre post : c_atom c = NonAtomic -> wf_cid cs = true ->
  hdP nalpha post = true ->
  M CG c (TEval (ERef 4 None)) pre cs post [Pair 4 (lenN pre) (lenN (pre ++ cs)) [] None].
Proof.
  intros Hc H Hp. apply (M_vref CG c 4 false KAtomic ident_body pre cs post [] ck_ident (na_not_atomic c Hc)).
  apply M_ident_body; [reflexivity|exact H|exact Hp].
Qed.

Lemma M_ch c n ch pre post : lookup CG n = Some (mkrule n false KNormal (EStr [ch])) ->
  c_atom c = NonAtomic ->
  M CG c (TEval (ERef n None)) pre [ch] post [Pair n (lenN pre) (lenN (pre ++ [ch])) [] None].
Proof.
  intros L Hc. apply (M_vref CG c n false KNormal _ pre [ch] post [] L (na_not_atomic c Hc)). apply M_str.
Qed.

Lemma F_ch c n ch pre r : lookup CG n = Some (mkrule n false KNormal (EStr [ch])) ->
  strip_prefix [ch] r = None -> F CG c (TEval (ERef n None)) pre r.
Proof. intros L H. eapply F_ref; [exact L|]. apply F_str. exact H. Qed.

(* a silent rule m around a one-character rule n: `prefix` around `neg`, `postfix` around `fac` *)
Lemma M_op c m n ch pre post : lookup CG m = Some (mkrule m true KNormal (ERef n None)) ->
  negb (is_trivia_name m) = true -> lookup CG n = Some (mkrule n false KNormal (EStr [ch])) ->
  c_atom c = NonAtomic ->
  M CG c (TEval (ERef m None)) pre [ch] post [Pair n (lenN pre) (lenN (pre ++ [ch])) [] None].
Proof.
  intros Lm Hm Ln Hc. apply (M_sref CG c m _ _ pre [ch] post _ Lm).
  apply M_ch; [exact Ln|apply rctx_na; assumption].
Qed.

Lemma F_op c m n ch pre r : lookup CG m = Some (mkrule m true KNormal (ERef n None)) ->
  lookup CG n = Some (mkrule n false KNormal (EStr [ch])) ->
  strip_prefix [ch] r = None -> F CG c (TEval (ERef m None)) pre r.
Proof. intros Lm Ln H. eapply F_ref; [exact Lm|]. apply (F_ch _ n ch); assumption. Qed.

Definition isop (d : N) : bool := (d =? 43) || (d =? 45) || (d =? 42) || (d =? 47) || (d =? 94).
Definition nop (d : N) : bool := negb (isop d).

(* the alternatives of `infix` in front of the one for operator o fail on its character *)
Lemma M_infix c o pre post : (o < 5)%nat -> c_atom c = NonAtomic ->
  M CG c (TEval (ERef 20 None)) pre [opc o] post
    [Pair (opn o) (lenN pre) (lenN (pre ++ [opc o])) [] None].
Proof.
  intros Ho Hc. apply (M_sref CG c 20 _ _ pre [opc o] post _ ck_infix).
  assert (Hc1 := rctx_na c 20 true infix_body eq_refl Hc).
  apply M_alt. destruct o as [|[|[|[|[|o]]]]]; [..|lia]; cbn [opc opn];
    repeat first [ apply Ma_first; apply M_ch; [reflexivity|exact Hc1]
                 | apply Ma_next; [eapply F_ch; reflexivity|] ].
Qed.

Lemma F_infix : rejects CG (ERef 20 None) nop.
Proof.
  apply (rej_ref CG _ _ _ ck_infix). apply rej_alt.
  repeat constructor; (eapply rej_ref; [reflexivity|]); apply rej_str; reflexivity.
Qed.

(* Y of JsonComplete.v with one pair per token: R := ctsk *)

Lemma YS_cws c w r : c_atom c = NonAtomic -> ws w -> hdP nows r = true -> YS CG c (w ++ r) r.
Proof. exact (YS_ws CG MS_cws c w r). Qed.

Lemma Y_op c m n ch t r : lookup CG m = Some (mkrule m true KNormal (ERef n None)) ->
  negb (is_trivia_name m) = true -> lookup CG n = Some (mkrule n false KNormal (EStr [ch])) ->
  ctsk t (SK n [ch] []) -> c_atom c = NonAtomic -> Y CG ctsk c (TEval (ERef m None)) (ch :: r) r [t].
Proof. intros Lm Hm Ln Ht Hc. apply (Y_leaf c _ n [ch] t r Ht). intros pre. apply M_op; assumption. Qed.

Lemma Y_infix c o r : (o < 5)%nat -> c_atom c = NonAtomic ->
  Y CG ctsk c (TEval (ERef 20 None)) (opc o :: r) r [CInf o].
Proof.
  intros Ho Hc. apply (Y_leaf c _ (opn o) [opc o] (CInf o) r (S_inf o)). intros pre.
  apply M_infix; assumption.
Qed.

Fixpoint rep_tail (ch : N) (wn : list text) : text :=
  match wn with [] => [] | w :: r => w ++ [ch] ++ rep_tail ch r end.

(* k occurrences of ch, separated by whitespace *)
Definition repP (ch : N) (k : nat) (x : text) : Prop :=
  match k with
  | O => x = []
  | S k' => exists wn, length wn = k' /\ Forall ws wn /\ x = ch :: rep_tail ch wn
  end.

Section Rep.
Variable c : ctx.
Hypothesis Hc : c_atom c = NonAtomic.
Variables (e : expr) (t : ctok) (ch : N).
Hypothesis HM : forall r, Y CG ctsk c (TEval e) (ch :: r) r [t].
Hypothesis HF : forall pre r, strip_prefix [ch] r = None -> F CG c (TEval e) pre r.
Hypothesis Hch : nows ch = true.

Lemma YT_rep : forall wn w' r', Forall ws wn -> ws w' -> hdP nows r' = true ->
  strip_prefix [ch] r' = None ->
  Y CG ctsk c (TStar e) (rep_tail ch wn ++ w' ++ r') (w' ++ r') (repeat t (length wn)).
Proof.
  induction wn as [|w wn IH]; intros w' r' Hwn Hw' Hr' Hs; cbn [rep_tail length repeat app].
  - apply (YT_stop c e (w' ++ r') r'); [apply YS_cws; assumption|intros pre; apply HF; exact Hs].
  - inversion Hwn as [|w0 wn0 Hw Hwn']; subst w0 wn0. rewrite <- app_assoc. cbn [app].
    eapply YT_go with (t2 := [t]); [apply YS_cws; assumption|apply HM|apply IH; assumption].
Qed.

Lemma strip1_ws_then w' r' : ws w' -> strip_prefix [ch] r' = None -> strip_prefix [ch] (w' ++ r') = None.
Proof.
  intros Hw Hs. destruct w' as [|d w']; [exact Hs|]. apply ws_cons in Hw. destruct Hw as [Hd _].
  apply (strip_hd is_ws); [|exact Hd]. unfold nows in Hch. apply negb_true_iff. exact Hch.
Qed.

Lemma Y_rep k x w' r' : repP ch k x -> ws w' -> hdP nows r' = true -> strip_prefix [ch] r' = None ->
  Y CG ctsk c (TEval (EStar e)) (x ++ w' ++ r') (w' ++ r') (repeat t k).
Proof.
  intros HR Hw' Hr' Hs. destruct k as [|k]; cbn [repP] in HR.
  - subst x. apply Y_star_stop. intros pre. apply HF. apply strip1_ws_then; assumption.
  - destruct HR as [wn [<- [Hwn ->]]]. eapply Y_star_go with (t1 := [t]); [apply HM|].
    apply YT_rep; assumption.
Qed.

End Rep.

Lemma crenders_uncons t ts x : crenders (t :: ts) x ->
  exists xt w y, x = xt ++ w ++ y /\ crenders_tok t xt /\ ws w /\ crenders ts y /\ (ts = [] -> w = []).
Proof.
  intros H. inversion H; subst.
  - exists x, [], []. rewrite app_nil_r. repeat split; [assumption|constructor].
  - eexists. eexists. eexists. repeat split; try eassumption. discriminate.
Qed.

Definition isprim (t : ctok) : bool :=
  match t with CInt _ | CId _ | CGroup _ => true | _ => false end.

Lemma wf_false_nonempty ts : wf_list wf_tok false ts = true -> ts <> [].
Proof. destruct ts; [discriminate|discriminate]. Qed.

Lemma repP_cons ch k x w : ws w -> repP ch (S k) x -> repP ch (S (S k)) (ch :: w ++ x).
Proof.
  intros Hw [wn [Hl [Hwn ->]]]. exists (w :: wn). split; [cbn; lia|]. split; [constructor; assumption|].
  reflexivity.
Qed.

Lemma repP_one ch : repP ch 1 [ch].
Proof. exists []. repeat split. constructor. Qed.

(* the run of a one-character token t0 (recognised by b) at the head of a stream *)
Lemma D_run t0 ch (b : ctok -> bool) :
  (forall t x, b t = true -> crenders_tok t x -> t = t0 /\ x = [ch]) ->
  forall ts R, crenders ts R ->
  exists k x wl ts' R',
    ts = repeat t0 k ++ ts' /\ repP ch k x /\ ws wl /\ (k = 0%nat -> wl = []) /\ (ts' = [] -> wl = []) /\
    R = x ++ wl ++ R' /\ crenders ts' R' /\ (forall t r, ts' = t :: r -> b t = false).
Proof.
  intros Hb. induction ts as [|t ts IH]; intros R Hr.
  - exists 0%nat, [], [], [], R. repeat split; try reflexivity; [exact Hr|discriminate].
  - destruct (b t) eqn:B.
    2: { exists 0%nat, [], [], (t :: ts), R. repeat split; try reflexivity; [exact Hr|].
         intros t1 r E. inversion E; subst. exact B. }
    destruct (crenders_uncons _ _ _ Hr) as (xt & w & y & -> & Ht & Hw & Hy & Hw0).
    destruct (Hb t xt B Ht) as [-> ->].
    destruct (IH y Hy) as (k & x & wl & ts' & R' & E & Hk & Hwl & Hk0 & Hr0 & -> & Hr' & Hn).
    destruct k as [|k].
    + cbn [repP] in Hk. subst x. rewrite (Hk0 eq_refl). cbn [repeat app] in E. subst ts'.
      exists 1%nat, [ch], w, ts, R'. repeat split; try assumption; [apply repP_one|discriminate].
    + exists (S (S k)), (ch :: w ++ x), wl, ts', R'. rewrite E.
      repeat split; try assumption; [apply repP_cons; assumption|discriminate|assoc].
Qed.

Lemma wf_negs k ts : wf_list wf_tok false (repeat CNeg k ++ ts) = wf_list wf_tok false ts.
Proof. induction k; [reflexivity|exact IHk]. Qed.

Lemma wf_facs j ts : wf_list wf_tok true (repeat CFac j ++ ts) = wf_list wf_tok true ts.
Proof. induction j; [reflexivity|exact IHj]. Qed.

(* what follows the primary: factorials, then nothing or an infix operator and the rest *)
Definition tailD (rest : list ctok) (Y : text) : Prop :=
  (rest = [] /\ Y = []) \/
  (exists o rest' w' R', rest = CInf o :: rest' /\ (o < 5)%nat /\
     wf_list wf_tok false rest' = true /\ ws w' /\ crenders rest' R' /\ Y = opc o :: w' ++ R').

(* negations, a primary, factorials, the rest *)
Lemma D_all ts R : wf_list wf_tok false ts = true -> crenders ts R ->
  exists k nx wl p px j fx wp wq rest Y,
    ts = repeat CNeg k ++ p :: repeat CFac j ++ rest /\
    repP 45 k nx /\ ws wl /\ (k = 0%nat -> wl = []) /\ isprim p = true /\ wf_tok p = true /\ crenders_tok p px /\
    repP 33 j fx /\ ws wp /\ ws wq /\ (j = 0%nat -> wq = []) /\ (rest = [] -> wq = []) /\
    tailD rest Y /\ R = nx ++ wl ++ px ++ wp ++ fx ++ wq ++ Y.
Proof.
  intros Hw Hr.
  destruct (D_run CNeg 45 (fun t => match t with CNeg => true | _ => false end)) with (2 := Hr)
    as (k & nx & wl & ts1 & R1 & -> & Hk & Hwl & Hk0 & _ & -> & Hr1 & Hn).
  { intros t x Ht Hx. destruct Hx; try discriminate. split; reflexivity. }
  rewrite wf_negs in Hw. destruct ts1 as [|p ts2]; [discriminate|]. specialize (Hn p ts2 eq_refl).
  assert (Hp : isprim p = true /\ wf_tok p = true /\ wf_list wf_tok true ts2 = true).
  { cbn [wf_list] in Hw. destruct p; try discriminate; apply andb_prop in Hw; tauto. }
  destruct Hp as (Hp & Hwp & Hw2).
  destruct (crenders_uncons _ _ _ Hr1) as (px & wp & R2 & -> & Hpx & Hws & Hr2 & _).
  destruct (D_run CFac 33 (fun t => match t with CFac => true | _ => false end)) with (2 := Hr2)
    as (j & fx & wq & rest & Y & -> & Hj & Hwq & Hj0 & Hr0 & -> & Hr3 & Hnf).
  { intros t x Ht Hx. destruct Hx; try discriminate. split; reflexivity. }
  rewrite wf_facs in Hw2.
  exists k, nx, wl, p, px, j, fx, wp, wq, rest, Y. repeat split; try assumption.
  destruct rest as [|t rest']; [left; inversion Hr3; split; reflexivity|right].
  specialize (Hnf t rest' eq_refl). cbn [wf_list] in Hw2. destruct t; try discriminate.
  apply andb_prop in Hw2. destruct Hw2 as [Ho Hw3]. apply Nat.ltb_lt in Ho.
  destruct (crenders_uncons _ _ _ Hr3) as (xt & w' & R' & -> & Ht & Hw' & Hr' & _).
  inversion Ht; subst. exists o, rest', w', R'. repeat split; assumption.
Qed.

(* sizes, for the induction through groups and tails *)
Fixpoint csize (t : ctok) : nat :=
  match t with CGroup inner => S (list_sum (map csize inner)) | _ => 1%nat end.
Definition csizes (ts : list ctok) : nat := list_sum (map csize ts).

Lemma csizes_app a b : csizes (a ++ b) = (csizes a + csizes b)%nat.
Proof. unfold csizes. rewrite map_app, list_sum_app. reflexivity. Qed.

Lemma csizes_cons t ts : csizes (t :: ts) = (csize t + csizes ts)%nat.
Proof. reflexivity. Qed.

Lemma csize_pos t : (1 <= csize t)%nat.
Proof. destruct t; cbn; lia. Qed.

(* pstart: the first characters of a primary; stopc: what ends an operand, an infix operator or
   ")"; fol: what may follow a primary, whitespace, "!" or stopc *)
Definition pstart (d : N) : bool := is_digit d || is_alpha d || (d =? 40).
Definition stopc (d : N) : bool := isop d || (d =? 41).
Definition fol (d : N) : bool := is_ws d || (d =? 33) || stopc d.
Definition closer (d : N) : bool := d =? 41.

Ltac ncase d v := destruct (N.eqb_spec d v); [subst d|].

Lemma alpha_props d : is_alpha d = true -> (97 <= d <= 122) \/ (65 <= d <= 90).
Proof.
  unfold is_alpha. intros H. apply orb_prop in H.
  destruct H as [H|H]; apply andb_prop in H; destruct H as [A B];
    apply N.leb_le in A; apply N.leb_le in B; lia.
Qed.

Lemma pstart_facts d : pstart d = true ->
  nows d = true /\ (45 =? d) = false /\ (41 =? d) = false.
Proof.
  unfold pstart. intros H.
  assert (K : (48 <= d <= 57) \/ (97 <= d <= 122) \/ (65 <= d <= 90) \/ d = 40).
  { apply orb_prop in H. destruct H as [H|H]; [apply orb_prop in H; destruct H as [H|H]|].
    - destruct (digit_props d H) as [_ [_ B]]. tauto.
    - apply alpha_props in H. tauto.
    - apply N.eqb_eq in H. tauto. }
  unfold nows, is_ws. repeat split;
    repeat match goal with |- context [?a =? ?b] => destruct (N.eqb_spec a b); [lia|] end; reflexivity.
Qed.

Lemma stopc_cases d : stopc d = true -> d = 43 \/ d = 45 \/ d = 42 \/ d = 47 \/ d = 94 \/ d = 41.
Proof.
  unfold stopc, isop. intros H.
  ncase d 43; [tauto|]. ncase d 45; [tauto|]. ncase d 42; [tauto|]. ncase d 47; [tauto|].
  ncase d 94; [tauto|]. ncase d 41; [tauto|]. discriminate.
Qed.

Lemma stopc_facts d : stopc d = true -> nows d = true /\ (33 =? d) = false /\ fol d = true.
Proof.
  intros H. assert (F : fol d = true) by (unfold fol; rewrite H; apply orb_true_r).
  destruct (stopc_cases d H) as [-> | [-> | [-> | [-> | [-> | ->]]]]]; repeat split; exact F.
Qed.

Lemma stopc_nows r : hdP stopc r = true -> hdP nows r = true.
Proof. apply hdP_imp. intros d H. apply (stopc_facts d H). Qed.

Lemma fol_facts d : fol d = true -> nf0 d = true /\ nalpha d = true.
Proof.
  unfold fol. intros H.
  assert (K : d = 32 \/ d = 9 \/ d = 13 \/ d = 10 \/ d = 33 \/ stopc d = true).
  { destruct (is_ws d) eqn:E; [apply is_ws_cases in E; tauto|]. cbn [orb] in H.
    ncase d 33; [tauto|]. cbn [orb] in H. tauto. }
  destruct K as [-> | [-> | [-> | [-> | [-> | K]]]]]; try (split; reflexivity).
  destruct (stopc_cases d K) as [-> | [-> | [-> | [-> | [-> | ->]]]]]; split; reflexivity.
Qed.

Lemma closer_stopc r : hdP closer r = true -> hdP stopc r = true.
Proof. apply hdP_imp. unfold closer, stopc. intros d ->. apply orb_true_r. Qed.

Lemma closer_nop r : hdP closer r = true -> hdP nop r = true.
Proof. apply hdP_imp. unfold closer. intros d H. apply N.eqb_eq in H. subst d. reflexivity. Qed.

Lemma closer_nows r : hdP closer r = true -> hdP nows r = true.
Proof. intros H. apply stopc_nows. apply closer_stopc. exact H. Qed.

Lemma opc_isop o : (o < 5)%nat -> isop (opc o) = true.
Proof. intros H. destruct o as [|[|[|[|[|o]]]]]; reflexivity. Qed.

Lemma opc_nows o : (o < 5)%nat -> nows (opc o) = true.
Proof. intros H. destruct o as [|[|[|[|[|o]]]]]; reflexivity. Qed.

Lemma prim_hd p px : isprim p = true -> wf_tok p = true -> crenders_tok p px ->
  exists d px', px = d :: px' /\ pstart d = true.
Proof.
  intros Hp Hw Hr. destruct Hr; try discriminate; cbn [wf_tok] in Hw.
  - destruct ds as [|d ds]; [discriminate|]. exists d, ds. split; [reflexivity|].
    assert (is_digit d = true).
    { destruct ds; cbn [wf_cint] in Hw; [exact Hw|]. apply andb_prop in Hw. apply nz_digit. apply Hw. }
    unfold pstart. rewrite H. reflexivity.
  - unfold wf_cid in Hw. destruct cs as [|d cs]; [discriminate|]. exists d, cs. split; [reflexivity|].
    cbn [nonempty andb forallb] in Hw. apply andb_prop in Hw. destruct Hw as [Hw _].
    unfold pstart. rewrite Hw, orb_true_r. reflexivity.
  - eexists. eexists. split; reflexivity.
Qed.

Lemma repP_hd ch k x r : repP ch k x -> hdP (fun d => d =? ch) (x ++ r) = true \/ (k = 0%nat /\ x = []).
Proof.
  destruct k; cbn [repP]; intros H.
  - right. split; [reflexivity|exact H].
  - left. destruct H as [wn [_ [_ ->]]]. cbn [app hdP]. apply N.eqb_refl.
Qed.

Lemma opd_hd k nx wl px r : repP 45 k nx -> (k = 0%nat -> wl = []) ->
  (exists d px', px = d :: px' /\ pstart d = true) -> hdP nows (nx ++ wl ++ px ++ r) = true.
Proof.
  intros Hk Hk0 [d [px' [-> Hd]]]. destruct (repP_hd 45 k nx (wl ++ (d :: px') ++ r) Hk) as [H|[E ->]].
  - revert H. apply hdP_imp. intros a Ha. apply N.eqb_eq in Ha. subst a. reflexivity.
  - rewrite (Hk0 E). apply (pstart_facts d Hd).
Qed.

Lemma stream_hd ts R r : wf_list wf_tok false ts = true -> crenders ts R -> hdP nows (R ++ r) = true.
Proof.
  intros Hw Hr.
  destruct (D_all ts R Hw Hr)
    as (k & nx & wl & p & px & j & fx & wp & wq & rest & Y & E & Hk & Hwl & Hk0 & Hp & Hwp & Hpx & _ & _ & _ & _ & _ & _ & ->).
  rewrite <- !app_assoc. apply (opd_hd k); [assumption..|]. apply (prim_hd p px); assumption.
Qed.

Definition primP (p : ctok) (px : text) : Prop :=
  forall c, c_atom c = NonAtomic -> forall post, hdP fol post = true ->
  Y CG ctsk c (TEval (ERef 9 None)) (px ++ post) post [p].

(* `expr` applied to a rendering followed by whitespace and a closer: it consumes the
   rendering and the first part wc of the whitespace (as all_Y shows, all of it or none of it) *)
Definition exprP (ts : list ctok) (R : text) : Prop :=
  forall c, c_atom c = NonAtomic -> forall wz r, ws wz -> hdP closer r = true ->
  exists wc wr, wz = wc ++ wr /\
    Y CG ctsk c (TEval (ERef 10 None)) (R ++ wc ++ wr ++ r) (wr ++ r) [CGroup ts].

Lemma prim_int ds : wf_cint ds = true -> primP (CInt ds) ds.
Proof.
  intros H c Hc post Hf. apply (Y_sref c 9 _ _ _ _ _ ck_primary). apply Y_alt. apply Y_first.
  apply (Y_leaf _ _ 6 ds (CInt ds) post (S_int ds)). intros pre.
  apply int_complete; [apply rctx_na; [reflexivity|exact Hc]|exact H|].
  revert Hf. apply hdP_imp. intros d Hd. apply (fol_facts d Hd).
Qed.

Lemma alpha_nf0 d : is_alpha d = true -> nf0 d = true /\ (40 =? d) = false.
Proof.
  intros H. apply alpha_props in H. unfold nf0, is_digit. split.
  - apply negb_true_iff. apply andb_false_iff.
    destruct (N.leb_spec 48 d); [right; apply N.leb_gt; lia|left; reflexivity].
  - apply N.eqb_neq. lia.
Qed.

Lemma prim_id cs : wf_cid cs = true -> primP (CId cs) cs.
Proof.
  intros H c Hc post Hf.
  assert (Hd : exists d cs', cs = d :: cs' /\ is_alpha d = true).
  { unfold wf_cid in H. destruct cs as [|d cs']; [discriminate|]. exists d, cs'. split; [reflexivity|].
    cbn [nonempty andb forallb] in H. apply andb_prop in H. apply H. }
  destruct Hd as [d [cs' [E Hd]]]. destruct (alpha_nf0 d Hd) as [A B].
  apply (Y_sref c 9 _ _ _ _ _ ck_primary). apply Y_alt.
  apply Y_next; [intros pre; apply F_cint; rewrite E; exact A|].
  apply Y_next.
  { intros pre. apply F_seq. apply Fs_first. apply F_str. rewrite E. cbn [app strip_prefix]. rewrite B. reflexivity. }
  apply Y_first. apply (Y_leaf _ _ 4 cs (CId cs) post (S_id cs)). intros pre.
  apply ident_complete; [apply rctx_na; [reflexivity|exact Hc]|exact H|].
  revert Hf. apply hdP_imp. intros d0 Hd0. apply (fol_facts d0 Hd0).
Qed.

Lemma prim_group inner w1 x w2 :
  wf_list wf_tok false inner = true -> crenders inner x -> ws w1 -> ws w2 -> exprP inner x ->
  primP (CGroup inner) (40 :: w1 ++ x ++ w2 ++ [41]).
Proof.
  intros Hwf Hr Hw1 Hw2 HE c Hc post Hf.
  assert (Hc1 := rctx_na c 9 true primary_body eq_refl Hc).
  destruct (HE _ Hc1 w2 (41 :: post) Hw2 eq_refl) as (wc & wr & -> & HM).
  apply ws_app_inv in Hw2. destruct Hw2 as [_ Hwr].
  apply (Y_sref c 9 _ _ _ _ _ ck_primary). apply Y_alt.
  apply Y_next; [intros pre; apply F_cint; reflexivity|]. apply Y_first. apply Y_seq.
  eapply Y_text; [|assoc]. eapply Y_seq_cons with (t1 := []).
  - apply (Y_str _ [40]).
  - apply (YS_cws _ w1); [exact Hc1|exact Hw1|]. apply (stream_hd inner x); assumption.
  - eapply Y_seq_cons with (t1 := [CGroup inner]) (t3 := []); [exact HM|apply (YS_cws _ wr); [exact Hc1|exact Hwr|reflexivity]|].
    apply Y_one. apply (Y_str _ [41]).
Qed.

Lemma F_tail : rejects CG e_tail nop.
Proof. apply rej_grp. apply rej_seq. exact F_infix. Qed.

Definition e_body_seq : list expr := [e_pfx; ERef 9 None; e_pst; EStar e_tail].

(* an operand: k negations, a primary, j factorials, with the whitespace after each part *)
Section Opd.
Variable c : ctx.
Hypothesis Hc : c_atom c = NonAtomic.
Variables (k : nat) (nx wl : text) (p : ctok) (px : text) (j : nat) (fx wp wq : text).
Hypothesis Hk : repP 45 k nx.
Hypothesis Hwl : ws wl.
Hypothesis Hk0 : k = 0%nat -> wl = [].
Hypothesis Hprim : primP p px.
Hypothesis Hphd : exists d px', px = d :: px' /\ pstart d = true.
Hypothesis Hwp : ws wp.
Hypothesis Hj : repP 33 j fx.
Hypothesis Hwq : ws wq.
Hypothesis Hj0 : j = 0%nat -> wq = [].

(* what follows the primary starts with "!" or with what follows the operand *)
Lemma hd_y (P : N -> bool) r : P 33 = true -> (forall d, stopc d = true -> P d = true) ->
  hdP stopc r = true -> hdP P (fx ++ wq ++ r) = true.
Proof.
  intros H33 HP Hr. destruct (repP_hd 33 j fx (wq ++ r) Hj) as [H|[E1 E2]].
  - revert H. apply hdP_imp. intros d H. apply N.eqb_eq in H. subst d. exact H33.
  - rewrite E2, (Hj0 E1). revert Hr. apply hdP_imp. exact HP.
Qed.

Lemma post_rep r : hdP stopc r = true -> Y CG ctsk c (TEval e_pst) (fx ++ wq ++ r) (wq ++ r) (repeat CFac j).
Proof.
  intros Hr. apply (Y_rep c Hc (ERef 12 None) CFac 33); [| |reflexivity|exact Hj|exact Hwq| |].
  - intros r0. apply (Y_op c 12 11 33 CFac r0 ck_postfix eq_refl ck_fac S_fac Hc).
  - intros pre r0. apply (F_op c 12 11 33 pre r0 ck_postfix ck_fac).
  - apply stopc_nows. exact Hr.
  - apply (strip_hd stopc); [reflexivity|exact Hr].
Qed.

(* prefix* ~ primary in front of  postfix* ~ es *)
Lemma opd_front es y r' t3 : hdP nows y = true -> hdP fol y = true ->
  Y CG ctsk c (TSeq (e_pst :: es)) y r' t3 ->
  Y CG ctsk c (TSeq (e_pfx :: ERef 9 None :: e_pst :: es)) (nx ++ wl ++ px ++ wp ++ y) r'
    (repeat CNeg k ++ p :: t3).
Proof.
  intros Hn Hf Hrest. destruct Hphd as [d [px' [Epx Hd]]]. destruct (pstart_facts d Hd) as [A [B _]].
  eapply Y_seq_cons.
  - apply (Y_rep c Hc (ERef 14 None) CNeg 45); [| |reflexivity|exact Hk|exact Hwl| |].
    + intros r0. apply (Y_op c 14 13 45 CNeg r0 ck_prefix eq_refl ck_neg S_neg Hc).
    + intros pre r0. apply (F_op c 14 13 45 pre r0 ck_prefix ck_neg).
    + rewrite Epx. exact A.
    + rewrite Epx. cbn [app strip_prefix]. rewrite B. reflexivity.
  - apply (YS_cws c wl); [exact Hc|exact Hwl|rewrite Epx; exact A].
  - eapply Y_seq_cons with (t1 := [p]); [|apply (YS_cws c wp); [exact Hc|exact Hwp|exact Hn]|exact Hrest].
    apply Hprim; [exact Hc|].
    apply hd_ws_then; [intros a Ha; unfold fol; rewrite Ha; reflexivity|exact Hwp|exact Hf].
Qed.

Lemma opd_hd_y r : hdP stopc r = true ->
  hdP nows (fx ++ wq ++ r) = true /\ hdP fol (fx ++ wq ++ r) = true.
Proof.
  intros Hr. split; (apply hd_y; [reflexivity|intros d H; apply (stopc_facts d H)|exact Hr]).
Qed.

Lemma opd_head r r' t4 : hdP stopc r = true -> Y CG ctsk c (TEval (EStar e_tail)) r r' t4 ->
  Y CG ctsk c (TSeq e_body_seq) (nx ++ wl ++ px ++ wp ++ fx ++ wq ++ r) r'
    (repeat CNeg k ++ p :: repeat CFac j ++ t4).
Proof.
  intros Hr HE. destruct (opd_hd_y r Hr) as [Hn Hf]. apply opd_front; [exact Hn|exact Hf|].
  eapply Y_seq_cons; [apply post_rep; exact Hr| |apply Y_one; exact HE].
  apply (YS_cws c wq); [exact Hc|exact Hwq|apply stopc_nows; exact Hr].
Qed.

(* infix ~ prefix* ~ primary ~ postfix* *)
Lemma opd_tail o w' r : (o < 5)%nat -> ws w' -> hdP stopc r = true ->
  Y CG ctsk c (TEval e_tail) (opc o :: w' ++ nx ++ wl ++ px ++ wp ++ fx ++ wq ++ r) (wq ++ r)
    (CInf o :: repeat CNeg k ++ p :: repeat CFac j).
Proof.
  intros Ho Hw' Hr. destruct (opd_hd_y r Hr) as [Hn Hf]. apply Y_grp. apply Y_seq.
  eapply Y_seq_cons with (t1 := [CInf o]).
  - apply Y_infix; assumption.
  - apply (YS_cws c w'); [exact Hc|exact Hw'|]. apply (opd_hd k); assumption.
  - apply opd_front; [exact Hn|exact Hf|]. apply Y_one. apply post_rep. exact Hr.
Qed.

(* the infix tail, entered after an iteration (TStar: skip first) or for the first time *)
Lemma opd_tails o u w' r r2 t2 : (o < 5)%nat -> ws u -> ws w' -> hdP stopc r = true ->
  Y CG ctsk c (TStar e_tail) (wq ++ r) r2 t2 ->
  Y CG ctsk c (TStar e_tail) (u ++ opc o :: w' ++ nx ++ wl ++ px ++ wp ++ fx ++ wq ++ r) r2
    (CInf o :: repeat CNeg k ++ p :: repeat CFac j ++ t2) /\
  Y CG ctsk c (TEval (EStar e_tail)) (opc o :: w' ++ nx ++ wl ++ px ++ wp ++ fx ++ wq ++ r) r2
    (CInf o :: repeat CNeg k ++ p :: repeat CFac j ++ t2).
Proof.
  intros Ho Hu Hw' Hr HT. assert (HG := opd_tail o w' r Ho Hw' Hr).
  replace (CInf o :: repeat CNeg k ++ p :: repeat CFac j ++ t2)
    with ((CInf o :: repeat CNeg k ++ p :: repeat CFac j) ++ t2) by assoc.
  split; [|eapply Y_star_go; [exact HG|exact HT]].
  eapply YT_go; [|exact HG|exact HT]. apply (YS_cws c u); [exact Hc|exact Hu|apply opc_nows; exact Ho].
Qed.

Lemma opd_last r : hdP closer r = true ->
  Y CG ctsk c (TSeq e_body_seq) (nx ++ wl ++ px ++ wp ++ fx ++ wq ++ r) r
    (repeat CNeg k ++ p :: repeat CFac j ++ []) /\
  forall o u w', (o < 5)%nat -> ws u -> ws w' ->
  Y CG ctsk c (TStar e_tail) (u ++ opc o :: w' ++ nx ++ wl ++ px ++ wp ++ fx ++ wq ++ r) (wq ++ r)
    (CInf o :: repeat CNeg k ++ p :: repeat CFac j ++ []) /\
  Y CG ctsk c (TEval (EStar e_tail)) (opc o :: w' ++ nx ++ wl ++ px ++ wp ++ fx ++ wq ++ r) (wq ++ r)
    (CInf o :: repeat CNeg k ++ p :: repeat CFac j ++ []).
Proof.
  intros Hcl. assert (Hr := closer_stopc r Hcl).
  assert (HF : forall pre, F CG c (TEval e_tail) pre r) by (intros pre; apply F_tail, closer_nop, Hcl).
  split.
  - apply opd_head; [exact Hr|]. apply Y_star_stop. exact HF.
  - intros o u w' Ho Hu Hw'. apply opd_tails; try assumption.
    apply (YT_stop c e_tail (wq ++ r) r); [|exact HF].
    apply YS_cws; [exact Hc|exact Hwq|apply closer_nows; exact Hcl].
Qed.

End Opd.

(* R is followed by whitespace wz = wc ++ wr and a closer; wc is the part `expr` takes with it.
   If the last operand has no postfix operator, the skip after its primary takes all of wz.  If
   it has some, wz stands in front of the infix tail: at the head of the body the sequence skips
   it before `( infix ... )*` matches nothing (wc = wz); inside the tail it is the skip of a
   further iteration that fails, and is undone (wc = []).  An operand followed by an infix
   operator passes on the split of the rest.  At the head of the body: *)
Definition headY (ts : list ctok) (R wc wr : text) : Prop :=
  forall c, c_atom c = NonAtomic -> forall r, hdP closer r = true ->
  Y CG ctsk c (TSeq e_body_seq) (R ++ wc ++ wr ++ r) (wr ++ r) ts.

(* in the infix tail, after an iteration and for the first time: *)
Definition tailY (ts : list ctok) (R wc wr : text) : Prop :=
  forall o, (o < 5)%nat -> forall c, c_atom c = NonAtomic -> forall u w' r,
  ws u -> ws w' -> hdP closer r = true ->
  Y CG ctsk c (TStar e_tail) (u ++ opc o :: w' ++ R ++ wc ++ wr ++ r) (wr ++ r) (CInf o :: ts) /\
  Y CG ctsk c (TEval (EStar e_tail)) (opc o :: w' ++ R ++ wc ++ wr ++ r) (wr ++ r) (CInf o :: ts).

Definition allY (ts : list ctok) (R : text) : Prop :=
  (forall wz, ws wz -> exists wc wr, wz = wc ++ wr /\ headY ts R wc wr) /\
  (forall wz, ws wz -> exists wc wr, wz = wc ++ wr /\ tailY ts R wc wr).

Lemma Y_expr c ts R wc r' : c_atom c = NonAtomic -> crenders ts R -> ws wc ->
  Y CG ctsk (rctx c 10 false expr_body) (TSeq e_body_seq) (R ++ wc ++ r') r' ts ->
  Y CG ctsk c (TEval (ERef 10 None)) (R ++ wc ++ r') r' [CGroup ts].
Proof.
  intros Hc Hr Hw H.
  apply (Y_rule c 10 KNormal expr_body _ _ ts (CGroup ts) ck_expr (na_not_atomic c Hc) (Y_seq _ _ _ _ _ H)).
  intros x kids E HF. rewrite app_assoc in E. apply app_inv_tail in E. subst x. constructor; assumption.
Qed.

Lemma exprP_of_head ts R : crenders ts R ->
  (forall wz, ws wz -> exists wc wr, wz = wc ++ wr /\ headY ts R wc wr) -> exprP ts R.
Proof.
  intros Hr HA c Hc wz r Hwz Hcl. destruct (HA wz Hwz) as (wc & wr & E & H).
  exists wc, wr. split; [exact E|]. rewrite E in Hwz. apply ws_app_inv in Hwz.
  apply Y_expr; [exact Hc|exact Hr|apply Hwz|]. apply H; [|exact Hcl]. apply rctx_na; [reflexivity|exact Hc].
Qed.

Lemma all_Y : forall n ts, (csizes ts < n)%nat -> wf_list wf_tok false ts = true ->
  forall R, crenders ts R -> allY ts R.
Proof.
  induction n as [|n IH]; intros ts Hsz Hwf R Hr; [lia|].
  destruct (D_all ts R Hwf Hr)
    as (k & nx & wl & p & px & j & fx & wp & wq & rest & Yt & E & Hk & Hwl & Hk0 & Hp & Hwfp & Hpx &
        Hj & Hwp & Hwq & Hj0 & Hr0 & HT & ER).
  assert (Hprim : primP p px).
  { destruct Hpx; try discriminate; cbn [wf_tok] in Hwfp.
    - apply prim_int. exact Hwfp.
    - apply prim_id. exact Hwfp.
    - apply prim_group; try assumption. apply exprP_of_head; [assumption|].
      apply IH; [|assumption..].
      rewrite E, csizes_app, csizes_cons in Hsz. cbn [csize] in Hsz. fold (csizes inner) in Hsz. lia. }
  assert (Hphd := prim_hd p px Hp Hwfp Hpx).
  destruct HT as [[-> ->] | (o' & rest' & w'' & R' & -> & Ho' & Hwf' & Hw'' & Hr' & ->)].
  - rewrite (Hr0 eq_refl) in *. subst ts R. clear Hr0 Hwq. destruct j as [|j].
    + (* no postfix operator: wc = wz in both places *)
      cbn [repP] in Hj. subst fx.
      assert (HL := fun wz Hwz c Hc => opd_last c Hc k nx wl p px 0%nat [] (wp ++ wz) [] Hk Hwl Hk0 Hprim Hphd
                      (ws_app _ _ Hwp Hwz) eq_refl eq_refl (fun _ => eq_refl)).
      split; intros wz Hwz; exists wz, []; (split; [rewrite app_nil_r; reflexivity|]).
      * intros c Hc r Hcl. eapply Y_text; [apply (HL wz Hwz c Hc r Hcl)|assoc].
      * intros o Ho c Hc u w' r Hu Hw' Hcl.
        destruct (proj2 (HL wz Hwz c Hc r Hcl) o u w' Ho Hu Hw') as [A B].
        split; (eapply Y_text; [eassumption|assoc]).
    + (* postfix operators: wc = wz at the head, wc = [] in the tail *)
      assert (Hj0' : forall wz : text, S j = 0%nat -> wz = []) by discriminate.
      assert (HL := fun wz Hwz c Hc => opd_last c Hc k nx wl p px (S j) fx wp wz Hk Hwl Hk0 Hprim Hphd
                      Hwp Hj Hwz (Hj0' wz)).
      split; intros wz Hwz.
      * exists wz, []. split; [rewrite app_nil_r; reflexivity|].
        intros c Hc r Hcl. eapply Y_text; [apply (HL wz Hwz c Hc r Hcl)|assoc].
      * exists [], wz. split; [reflexivity|]. intros o Ho c Hc u w' r Hu Hw' Hcl.
        destruct (proj2 (HL wz Hwz c Hc r Hcl) o u w' Ho Hu Hw') as [A B].
        split; (eapply Y_text; [eassumption|assoc]).
  - clear Hr0. subst ts R.
    assert (HI : allY rest' R').
    { apply (IH rest'); [|assumption..].
      rewrite csizes_app, csizes_cons, csizes_app, csizes_cons in Hsz.
      pose proof (csize_pos p). cbn [csize] in Hsz. lia. }
    destruct HI as [_ HI].
    assert (Hst : forall x, hdP stopc (opc o' :: x) = true).
    { intros x. cbn [hdP]. unfold stopc. rewrite (opc_isop o' Ho'). reflexivity. }
    split; intros wz Hwz; destruct (HI wz Hwz) as (wc & wr & Ew & HP); exists wc, wr; (split; [exact Ew|]).
    + intros c Hc r Hcl. destruct (HP o' Ho' c Hc [] w'' r eq_refl Hw'' Hcl) as [_ HE].
      eapply Y_text; [|assoc].
      eapply (opd_head c Hc k nx wl p px j fx wp wq); [assumption..|apply Hst|exact HE].
    + intros o Ho c Hc u w' r Hu Hw' Hcl. destruct (HP o' Ho' c Hc wq w'' r Hwq Hw'' Hcl) as [HT _].
      assert (HB := fun x => opd_tails c Hc k nx wl p px j fx wp wq Hk Hwl Hk0 Hprim Hphd Hwp Hj Hwq Hj0
                       o u w' (opc o' :: x) (wr ++ r) (CInf o' :: rest') Ho Hu Hw' (Hst x)).
      destruct (HB _ HT) as [A B]. split; (eapply Y_text; [eassumption|assoc]).
Qed.

(* all_Y unfolded into located derivations (M over an explicit input): not used below *)
Definition PA (ts : list ctok) (R wc wr : text) : Prop :=
  forall c, c_atom c = NonAtomic -> forall input pre r,
  hdP closer r = true -> input = pre ++ (R ++ wc) ++ wr ++ r ->
  exists kids, M CG c (TSeq e_body_seq) pre (R ++ wc) (wr ++ r) kids /\
               Forall2 ctsk ts (map (skel input) kids).

Definition TPs (o : nat) (ts : list ctok) (R wc wr : text) : Prop :=
  forall c, c_atom c = NonAtomic -> forall input pre u w' r,
  ws u -> ws w' -> hdP closer r = true ->
  input = pre ++ (u ++ (opc o :: w' ++ R) ++ wc) ++ wr ++ r ->
  exists kids, M CG c (TStar e_tail) pre (u ++ (opc o :: w' ++ R) ++ wc) (wr ++ r) kids /\
               Forall2 ctsk (CInf o :: ts) (map (skel input) kids).

Definition TPe (o : nat) (ts : list ctok) (R wc wr : text) : Prop :=
  forall c, c_atom c = NonAtomic -> forall input pre w' r,
  ws w' -> hdP closer r = true ->
  input = pre ++ ((opc o :: w' ++ R) ++ wc) ++ wr ++ r ->
  exists kids, M CG c (TEval (EStar e_tail)) pre ((opc o :: w' ++ R) ++ wc) (wr ++ r) kids /\
               Forall2 ctsk (CInf o :: ts) (map (skel input) kids).

Definition ALL (ts : list ctok) (R : text) : Prop :=
  (forall wz, ws wz -> exists wc wr, wz = wc ++ wr /\ PA ts R wc wr) /\
  (forall wz, ws wz -> exists wc wr, wz = wc ++ wr /\
     forall o, (o < 5)%nat -> TPs o ts R wc wr /\ TPe o ts R wc wr).

Lemma main : forall n ts, (csizes ts < n)%nat -> wf_list wf_tok false ts = true ->
  forall R, crenders ts R -> ALL ts R.
Proof.
  intros n ts Hsz Hwf R Hr. destruct (all_Y n ts Hsz Hwf R Hr) as [HA HT].
  split; intros wz Hwz;
    [destruct (HA wz Hwz) as (wc & wr & E & H)|destruct (HT wz Hwz) as (wc & wr & E & H)];
    exists wc, wr; (split; [exact E|]).
  - intros c Hc input pre r Hcl. apply Y_M. eapply Y_text; [apply (H c Hc r Hcl)|assoc].
  - intros o Ho. split.
    + intros c Hc input pre u w' r Hu Hw' Hcl. apply Y_M.
      eapply Y_text; [apply (H o Ho c Hc u w' r Hu Hw' Hcl)|assoc].
    + intros c Hc input pre w' r Hw' Hcl. apply Y_M.
      eapply Y_text; [apply (H o Ho c Hc [] w' r eq_refl Hw' Hcl)|assoc].
Qed.

Lemma expr_complete ts R : wf_ctoks ts = true -> crenders ts R -> exprP ts R.
Proof.
  intros Hwf Hr. apply exprP_of_head; [exact Hr|].
  apply (all_Y (S (csizes ts))); [lia|exact Hwf|exact Hr].
Qed.

(* COMPLETENESS: every rendering of a well-formed token stream is accepted by
   calculator.pest, the whole input is consumed, and the children of the `expr` pair are
   exactly the tokens of the stream, in order (groups as nested `expr` pairs). *)
Theorem calc_complete : forall ts text, wf_ctoks ts = true -> crenders_doc ts text ->
  exists f s tree,
    Spec.parse calc_grammar f calc_grammar_start text 0 = Ok s tree /\ s_rest s = [] /\
    cmirrors text ts tree.
Proof.
  intros ts text Hwf Hdoc. destruct Hdoc as [ts w1 x w2 Hw1 Hr Hw2].
  (* `expr` takes the first part wc of the trailing whitespace with it *)
  destruct (expr_complete ts x Hwf Hr (rctx ctx0 21 false program_body) eq_refl w2 [] Hw2 eq_refl)
    as (wc & wr & -> & HY).
  rewrite !app_nil_r in HY. apply ws_app_inv in Hw2. destruct Hw2 as [Hwc Hwr].
  destruct (doc_complete CG MS_cws 21 false 22 (ERef 10 None) ctok ctsk (CGroup ts) w1 (x ++ wc) wr
              ck_program ck_soi ck_eoi eq_refl Hw1 Hwr) as [f [s [tree [top [E [Hs [Hk Ht]]]]]]].
  - rewrite <- app_assoc. apply (stream_hd ts x); assumption.
  - rewrite <- app_assoc. exact HY.
  - rewrite <- app_assoc in E, Hk. exists f, s, tree. split; [exact E|]. split; [exact Hs|].
    exists top. split; assumption.
Qed.

(* what the grammar delivers is a stream the Pratt parser of Pratt.v consumes entirely, into
   the canonical tree, for ANY operator table *)
Theorem calc_end_to_end : forall tb ts text, wf_ctoks ts = true -> crenders_doc ts text ->
  exists f s ptree sl kids,
    Spec.parse calc_grammar f calc_grammar_start text 0 = Ok s ptree /\ s_rest s = [] /\
    map (skel text) ptree = [SK 21 text [SK 10 sl kids; SK 3 [] []]] /\
    toks_of kids = ptoks ts /\
    exists f' t, Pratt.parse_expr tb f' (toks_of kids) 0 = Some (t, []) /\
                 canon tb 0 t /\ yield t = toks_of kids.
Proof.
  intros tb ts text Hwf Hdoc.
  destruct (calc_complete ts text Hwf Hdoc) as [f [s [ptree [E [Hs [top [Hm Ht]]]]]]].
  inversion Ht as [| | | | |inner x w kids Hx Hw HF]; subst.
  assert (Htk : toks_of kids = ptoks ts) by (apply (toks_of_ptoks ts kids false 0%nat Hwf HF)).
  exists f, s, ptree, (x ++ w), kids. repeat split; try assumption.
  rewrite Htk. apply calc_pratt_total. exact Hwf.
Qed.

(* Non-vacuity:   -a + ( 12 * 3 ! )<LF>^ 7/x - 0<CR><LF>   (preceded by a space) *)

Definition ex_inner : list ctok := [CInt [49; 50]; CInf 2; CInt [51]; CFac].
Definition ex_ts : list ctok :=
  [CNeg; CId [97]; CInf 0; CGroup ex_inner; CInf 4; CInt [55]; CInf 3; CId [120]; CInf 1; CInt [48]].

Definition ex_text : text :=
  [32; 45; 97; 32; 43; 32; 40; 32; 49; 50; 32; 42; 32; 51; 32; 33; 32; 41; 10; 94; 32; 55; 47; 120;
   32; 45; 32; 48; 13; 10].

Example ex_wf : wf_ctoks ex_ts = true.
Proof. vm_compute. reflexivity. Qed.

Definition ex_r_inner : crenders ex_inner _ :=
  CR_cons (CInt [49; 50]) _ _ _ [32] _ (CT_int _) eq_refl
  (CR_cons (CInf 2) _ _ _ [32] _ (CT_inf 2) eq_refl
  (CR_cons (CInt [51]) _ _ _ [32] _ (CT_int _) eq_refl
  (CR_one CFac _ CT_fac))).

Definition ex_r : crenders ex_ts _ :=
  CR_cons CNeg _ _ _ [] _ CT_neg eq_refl
  (CR_cons (CId [97]) _ _ _ [32] _ (CT_id _) eq_refl
  (CR_cons (CInf 0) _ _ _ [32] _ (CT_inf 0) eq_refl
  (CR_cons (CGroup ex_inner) _ _ _ [10] _ (CT_group ex_inner [32] _ [32] eq_refl ex_r_inner eq_refl) eq_refl
  (CR_cons (CInf 4) _ _ _ [32] _ (CT_inf 4) eq_refl
  (CR_cons (CInt [55]) _ _ _ [] _ (CT_int _) eq_refl
  (CR_cons (CInf 3) _ _ _ [] _ (CT_inf 3) eq_refl
  (CR_cons (CId [120]) _ _ _ [32] _ (CT_id _) eq_refl
  (CR_cons (CInf 1) _ _ _ [32] _ (CT_inf 1) eq_refl
  (CR_one (CInt [48]) _ (CT_int _)))))))))).

(* membership in the rendering relation, checked by conversion against the literal text *)
Example ex_renders : crenders_doc ex_ts ex_text.
Proof. exact (CR_doc ex_ts [32] _ [13; 10] eq_refl ex_r eq_refl). Qed.

Example ex_accepted : exists f s tree,
  Spec.parse calc_grammar f calc_grammar_start ex_text 0 = Ok s tree /\ s_rest s = [] /\
  cmirrors ex_text ex_ts tree.
Proof. exact (calc_complete ex_ts ex_text ex_wf ex_renders). Qed.

(* running the reference semantics agrees.  The outer `expr` ends in an operand
   without postfix and so swallows the trailing CR LF; the group ends in `!` inside the infix
   tail and does not swallow the space before ")". *)
Definition ex_run : res := Spec.parse calc_grammar 100 calc_grammar_start ex_text 0.

Definition ex_kids : list sk :=
  [ SK 13 [45] []; SK 4 [97] []; SK 19 [43] [];
    SK 10 [49; 50; 32; 42; 32; 51; 32; 33] [SK 6 [49; 50] []; SK 17 [42] []; SK 6 [51] []; SK 11 [33] []];
    SK 15 [94] []; SK 6 [55] []; SK 16 [47] []; SK 4 [120] []; SK 18 [45] []; SK 6 [48] [] ].

Example ex_parse_ok :
  match ex_run with
  | Ok s tree =>
      s_rest s = [] /\ s_pos s = lenN ex_text /\
      map (skel ex_text) tree = [SK 21 ex_text [SK 10 (firstn 29 (skipn 1 ex_text)) ex_kids; SK 3 [] []]] /\
      toks_of ex_kids = ptoks ex_ts
  | _ => False
  end.
Proof. vm_compute. repeat split. Qed.

(* with a table in the usual order (prefix - : 5; ! : 6; + - : 1; * / : 2; ^ : 3, right-associative;
   not the levels of examples/calculator) the delivered stream becomes  ((-a) + ((g ^ 7) / x)) - 0  *)
Definition ex_tb : table :=
  {| pre := fun _ => 5%nat; post := fun _ => 6%nat;
     inf := fun o => match o with 0%nat | 1%nat => (1%nat, false) | 2%nat | 3%nat => (2%nat, false)
                     | _ => (3%nat, true) end |}.

Example ex_pratt :
  Pratt.parse ex_tb (toks_of ex_kids) =
  Some (TIn (TIn (TPre 0 (TPrim 1)) 0 (TIn (TIn (TPrim 3) 4 (TPrim 5)) 3 (TPrim 7))) 1 (TPrim 9), []).
Proof. vm_compute. reflexivity. Qed.

Print Assumptions int_complete.
Print Assumptions ident_complete.
Print Assumptions main.
Print Assumptions calc_stream_wellformed.
Print Assumptions calc_pratt_total.
Print Assumptions calc_complete.
Print Assumptions calc_end_to_end.
Print Assumptions ex_accepted.
