(* C13 — parse failures carry a valid position and a message position that is the position's
   line and column (statements; proofs in SpecWf.v and LineColProof.v). Rendering of the
   message text itself (join_with_limit, labels) is tested on every rejected input by the
   check, not proved. *)
From Coq Require Import List NArith ZArith Arith.
Import ListNotations.
From PP Require Import Base Syntax Spec SpecWf LineCol LineColProof Interp Gen GenProof MachineCor.

(* whenever parsing fails, the furthest-failure position is the sentinel -1 or lies in
   [start_pos, len(input)] *)
Theorem C13_position_valid : forall g input k f rule t,
  k <= length input -> parse g f rule input k = Fail t ->
  t_pos t = (-1)%Z \/ (Z.of_nat k <= t_pos t <= Z.of_nat (length input))%Z.
Proof. exact parse_fail_position. Qed.

(* the rule names listed as expected / unexpected are rules of the grammar *)
Theorem C13_names_valid : forall g input k f rule t,
  k <= length input -> parse g f rule input k = Fail t ->
  Forall (fun n => exists r, lookup g n = Some r) (t_exp t) /\
  Forall (fun n => exists r, lookup g n = Some r) (t_unexp t).
Proof. exact parse_fail_names. Qed.

(* the line:column shown is line_col of the position, and the source line shown is that line *)
Theorem C13_context_is_line_col : forall t p,
  error_context t p =
  (rstrip (nth (fst (line_col t p) - 1) (split_keep t) []), fst (line_col t p), snd (line_col t p)).
Proof. intros t p. unfold error_context. destruct (line_col t p). reflexivity. Qed.

Theorem C13_line_col_of_position : forall t p, nl_only t = true -> p <= length t ->
  line_col t p = (1 + count_nl (firstn p t), 1 + after_last_nl (firstn p t) 0).
Proof.
  intros t p Hn Hp. rewrite (line_col_spec t p Hn Hp). apply spec_line_col_counts. exact Hp.
Qed.

Example c13_after_trailing_newline : error_context [97; 10]%N 2 = ([], 2, 1).
Proof. reflexivity. Qed.


(* ---- the same for the two machines as modelled (Interp.v: the interpreter; Gen.v: the generated
   code; each tied exactly to its execution mode on every run), by the refinement theorems
   (MachineCor.v). Side conditions as in C01: `one_modifier g` (a silent rule is not $ or !),
   `inl_ok g inl` (built-in rules emitted in place are plain silent rules). *)
Theorem C13_interpreter_position_valid : forall g, one_modifier g ->
  forall f rule input k s ps, k <= length input ->
  iparse g f rule input k = IOk false s ps ->
  t_pos (i_trk s) = (-1)%Z \/ (Z.of_nat k <= t_pos (i_trk s) <= Z.of_nat (length input))%Z.
Proof. exact machine_C13_position_interp. Qed.
Theorem C13_interpreter_names_valid : forall g, one_modifier g ->
  forall f rule input k s ps, k <= length input ->
  iparse g f rule input k = IOk false s ps ->
  Forall (fun n => exists r, lookup g n = Some r) (t_exp (i_trk s)) /\
  Forall (fun n => exists r, lookup g n = Some r) (t_unexp (i_trk s)).
Proof. exact machine_C13_names_interp. Qed.
Theorem C13_generated_position_valid : forall g inl, one_modifier g -> inl_ok g inl ->
  forall f rule input k s ps, inlined inl rule = false -> k <= length input ->
  gparse g inl f rule input k = GOk false s ps ->
  t_pos (i_trk s) = (-1)%Z \/ (Z.of_nat k <= t_pos (i_trk s) <= Z.of_nat (length input))%Z.
Proof. exact machine_C13_position_gen. Qed.
Theorem C13_generated_names_valid : forall g, one_modifier g ->
  forall f rule input k s ps, k <= length input ->
  gparse g [] f rule input k = GOk false s ps ->
  Forall (fun n => exists r, lookup g n = Some r) (t_exp (i_trk s)) /\
  Forall (fun n => exists r, lookup g n = Some r) (t_unexp (i_trk s)).
Proof. exact machine_C13_names_gen. Qed.

Print Assumptions C13_position_valid.
Print Assumptions C13_names_valid.
Print Assumptions C13_context_is_line_col.
Print Assumptions C13_line_col_of_position.
Print Assumptions C13_interpreter_position_valid.
Print Assumptions C13_interpreter_names_valid.
Print Assumptions C13_generated_position_valid.
Print Assumptions C13_generated_names_valid.
