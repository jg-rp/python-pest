(* C09 — snapshotting stack, counter and parser state act like full-copy snapshots
   (statements; proofs in SnapStackProof.v). *)
From Coq Require Import List Arith ZArith.
Import ListNotations.
From PP Require Import SnapStack SnapStackProof.

(* for EVERY finite history of push, pop, clear, snapshot, restore and drop-snapshot the
   contents of the delta-encoded stack equal those of the reference that stores full copies *)
Theorem C09_stack_refines : forall (A : Type) (ops : list (op A)),
  items (fold_left (sstep A) ops (sinit A)) = cur (fold_left (rstep A) ops (rinit A)).
Proof. exact stack_refines. Qed.

(* stronger: the whole reference state, including every saved copy (innermost first), is
   recovered from items/popped/lengths after every history, and the representation invariant
   holds — so restore returns exactly the contents at the matching snapshot, dropping a
   snapshot changes nothing visible and leaves every outer snapshot exactly restorable *)
Theorem C09_history_refines : forall (A : Type) (ops : list (op A)) (s : sstack A), SInv A s ->
  SInv A (fold_left (sstep A) ops s) /\
  abs A (fold_left (sstep A) ops s) = fold_left (rstep A) ops (abs A s).
Proof. exact history_ref. Qed.

Theorem C09_restore_exact : forall (A : Type) (s : sstack A), SInv A s ->
  abs A (srestore A s) = rrestore A (abs A s).
Proof. intros A s H. exact (proj2 (commutes A _ _ (restore_ref A) s H)). Qed.
Theorem C09_drop_invisible : forall (A : Type) (s : sstack A), SInv A s ->
  abs A (sdrop A s) = rdrop A (abs A s).
Proof. intros A s H. exact (proj2 (commutes A _ _ (drop_ref A) s H)). Qed.
Theorem C09_restore_without_snapshot_empties : forall (A : Type) (s : sstack A),
  lens s = [] -> items (srestore A s) = [].
Proof. intros A s H. unfold srestore. rewrite H. reflexivity. Qed.

(* the snapshotting counter stores full copies: restore undoes everything since the snapshot *)
Theorem C09_int_refines : forall (s : sint) (ks : list Z),
  istep (fold_left istep (map IAdd ks) (istep s ISnap)) IRestore = s.
Proof.
  intros s ks. assert (H : forall t, icps (fold_left istep (map IAdd ks) t) = icps t).
  { induction ks as [|k ks IH]; intros t; [reflexivity|]. cbn. rewrite IH. reflexivity. }
  unfold istep at 1. rewrite H. cbn. destruct s; reflexivity.
Qed.
Theorem C09_int_restore_without_snapshot : forall v, ival (istep {| ival := v; icps := [] |} IRestore) = 0%Z.
Proof. reflexivity. Qed.

(* ParserState.checkpoint/ok/restore apply the same operation to all components together *)
Theorem C09_state_refines : forall (A B : Type) (p : pstate A B),
  SInv A (p_user p) -> SInv B (p_rules p) ->
  (abs A (p_user (pcheckpoint A B p)) = rsnap A (abs A (p_user p)) /\
   abs B (p_rules (pcheckpoint A B p)) = rsnap B (abs B (p_rules p)) /\
   p_depth (pcheckpoint A B p) = istep (p_depth p) ISnap /\
   p_poshist (pcheckpoint A B p) = p_pos p :: p_poshist p /\
   p_taghist (pcheckpoint A B p) = p_tags p :: p_taghist p) /\
  (abs A (p_user (pok A B p)) = rdrop A (abs A (p_user p)) /\
   abs B (p_rules (pok A B p)) = rdrop B (abs B (p_rules p)) /\
   p_depth (pok A B p) = istep (p_depth p) IDrop /\ p_pos (pok A B p) = p_pos p /\
   p_tags (pok A B p) = p_tags p) /\
  (abs A (p_user (prestore A B p)) = rrestore A (abs A (p_user p)) /\
   abs B (p_rules (prestore A B p)) = rrestore B (abs B (p_rules p)) /\
   p_depth (prestore A B p) = istep (p_depth p) IRestore /\
   p_pos (prestore A B p) = hd (p_pos p) (p_poshist p) /\
   p_tags (prestore A B p) = hd (p_tags p) (p_taghist p)).
Proof.
  intros A B p HA HB. repeat split.
  - exact (proj2 (commutes A _ _ (snap_ref A) _ HA)).
  - exact (proj2 (commutes B _ _ (snap_ref B) _ HB)).
  - exact (proj2 (commutes A _ _ (drop_ref A) _ HA)).
  - exact (proj2 (commutes B _ _ (drop_ref B) _ HB)).
  - exact (proj2 (commutes A _ _ (restore_ref A) _ HA)).
  - exact (proj2 (commutes B _ _ (restore_ref B) _ HB)).
Qed.

(* non-vacuity: the history that broke the original implementation *)
Example c09_history :
  rev (items (fold_left (sstep nat) [OPush 1; OSnap; OSnap; OPop; ODrop; ORestore]
                        (sinit nat))) = [1].
Proof. reflexivity. Qed.

Print Assumptions C09_stack_refines.
Print Assumptions C09_history_refines.
Print Assumptions C09_restore_exact.
Print Assumptions C09_drop_invisible.
Print Assumptions C09_restore_without_snapshot_empties.
Print Assumptions C09_int_refines.
Print Assumptions C09_int_restore_without_snapshot.
Print Assumptions C09_state_refines.
