(* OptPassInline.v — the inline_builtin pass (OptPass.pass_inline_builtin: PREORDER traversal, table-dependent
   node function) only produces tables the proved validator accepts. *)
From Coq Require Import List ZArith Bool Lia.
Import ListNotations.
From PP Require Import Base Syntax Spec SpecSyn SpecEquiv Opt OptProof OptPass OptPassProof.
Open Scope nat_scope.

Lemma gos_F2 (go : expr -> option expr) : forall l ys,
  (fix gos (l : list expr) : option (list expr) :=
     match l with
     | [] => Some []
     | x :: l' => match go x, gos l' with Some y, Some ys => Some (y :: ys) | _, _ => None end
     end) l = Some ys -> Forall2 (fun a b => go a = Some b) l ys.
Proof.
  induction l as [|x l IH]; intros ys H.
  - inversion H. constructor.
  - destruct (go x) as [y|] eqn:E; [|discriminate].
    match type of H with match ?t with _ => _ end = _ => destruct t as [ys'|] eqn:E2; [|discriminate] end.
    inversion H; subst. constructor; [exact E|apply IH; reflexivity].
Qed.

Lemma map_td_shape f fu e e' : map_td f (S fu) e = Some e' ->
  cong (fun a b => map_td f fu a = Some b) (f e) e'.
Proof.
  cbn [map_td]. intros H.
  destruct (f e);
    try (injection H as <-; apply CG_leaf; reflexivity);
    try (match type of H with match ?t with _ => _ end = _ => destruct t as [b|] eqn:E; [|discriminate H] end;
         injection H as <-; constructor; exact E).
  - match type of H with match ?t with _ => _ end = _ => destruct t as [ys|] eqn:E; [|discriminate H] end.
    injection H as <-. apply CG_seq. apply (gos_F2 (map_td f fu)). exact E.
  - match type of H with match ?t with _ => _ end = _ => destruct t as [ys|] eqn:E; [|discriminate H] end.
    injection H as <-. apply CG_alt. apply (gos_F2 (map_td f fu)). exact E.
Qed.

Lemma inline_builtin1_cases bi g e : inline_builtin1 bi g e = e \/
  exists n r, e = ERef n None /\ bi n = true /\ n <> EOI_ID /\ lookup g n = Some r /\
              inline_builtin1 bi g e = r_body r.
Proof.
  destruct e; try (left; reflexivity). destruct tag as [t|]; [left; reflexivity|]. cbn [inline_builtin1].
  destruct (bi n && negb (N.eqb n EOI_ID)) eqn:B; [|left; reflexivity].
  destruct (lookup g n) as [r|] eqn:L; [|left; reflexivity].
  apply andb_prop in B. destruct B as [B1 B2]. apply negb_true_iff in B2. apply N.eqb_neq in B2.
  right. exists n, r. repeat split; try assumption; reflexivity.
Qed.

Section Expr.
Variables g g' : grammar.
Hypothesis Hdef : forall n, defined_in g' n = defined_in g n.
Variable bi : N -> bool.
Hypothesis Hbi : forall n r, bi n = true -> n <> EOI_ID -> lookup g n = Some r -> plain_silent r = true.

(* two levels of the validator per level of the traversal: one for the inlined reference, one for the node *)
Lemma ochk_inline_td : forall fu e e', map_td (inline_builtin1 bi g) fu e = Some e' ->
  forall F toff, 2 * fu <= F -> ochk g g' F toff e e' = true.
Proof.
  induction fu as [|fu IH]; intros e e' H F toff LF; [discriminate|].
  apply map_td_shape in H.
  destruct F as [|[|F]]; try lia.
  assert (Node : forall K, 2 * fu <= K -> ochk g g' (S K) toff (inline_builtin1 bi g e) e' = true).
  { intros K LK. eapply (cong_ochk g g' Hdef); [|exact H]. intros a b M. exact (IH a b M K toff LK). }
  destruct (inline_builtin1_cases bi g e) as [E|[n [r [-> [B [NE [L E]]]]]]]; rewrite E in Node.
  - apply Node. lia.
  - apply (ochk_inline g g' (S F) toff n r e' L (Hbi n r B NE L)). apply Node. lia.
Qed.

End Expr.

Definition builtins_plain (bi : N -> bool) (g : grammar) : bool :=
  forallb (fun r => negb (bi (r_name r)) || N.eqb (r_name r) EOI_ID || plain_silent r) g.

Lemma opt_rules_map {A} (h : A -> option rule) : forall l g',
  opt_rules (map h l) = Some g' -> Forall2 (fun x r' => h x = Some r') l g'.
Proof.
  induction l as [|x l IH]; intros g' H; cbn [map opt_rules] in H.
  - inversion H. constructor.
  - destruct (h x) as [r|] eqn:E; [|discriminate].
    destruct (opt_rules (map h l)) as [gl|] eqn:E2; [|discriminate].
    inversion H; subst. constructor; [exact E|apply IH; reflexivity].
Qed.

Lemma inline_builtin_rel bi fuel g g' : pass_inline_builtin bi fuel g = Some g' ->
  Forall2 (rule_rel (fun a b => b = a \/ map_td (inline_builtin1 bi g) fuel a = Some b)) g g'.
Proof.
  intros H. apply opt_rules_map in H. revert H. apply Forall2_impl'. intros r r' E.
  destruct (bi (r_name r)); [inversion E; subst r'; split; [repeat split; reflexivity|left; reflexivity]|].
  destruct (map_td (inline_builtin1 bi g) fuel (r_body r)) as [b|] eqn:M; [|discriminate].
  inversion E; subst r'. split; [repeat split; reflexivity|right; exact M].
Qed.

Theorem pass_inline_builtin_validated bi fuel g g' :
  names_nodup g = true -> defined_in g SKIP_ID = false -> builtins_plain bi g = true ->
  gdepth g <= 2 * fuel ->
  pass_inline_builtin bi fuel g = Some g' ->
  ochk_grammar g g' (2 * fuel) = true.
Proof.
  intros ND NS BP GD H. apply inline_builtin_rel in H.
  pose proof (heads_defined _ _ (rel_heads _ _ _ H)) as Hd.
  assert (Hbi : forall n r, bi n = true -> n <> EOI_ID -> lookup g n = Some r -> plain_silent r = true).
  { intros n r B NE L. pose proof (lookup_In g n r L) as I. pose proof (lookup_name g n r L) as E.
    unfold builtins_plain in BP. rewrite forallb_forall in BP. specialize (BP r I). rewrite E, B in BP.
    apply N.eqb_neq in NE. rewrite NE in BP. exact BP. }
  apply (rel_validated _ g g' _ ND NS H). intros r b toff Hr [->|M]; pose proof (gdepth_In g r Hr) as Dp.
  - apply (ochk_refl g g' Hd). lia.
  - exact (ochk_inline_td g g' Hd bi Hbi fuel (r_body r) b M (2 * fuel) toff (le_n _)).
Qed.

Theorem pass_inline_builtin_sound bi fuel g g' :
  names_nodup g = true -> defined_in g SKIP_ID = false -> builtins_plain bi g = true ->
  gdepth g <= 2 * fuel ->
  pass_inline_builtin bi fuel g = Some g' ->
  forall rule input k, defined_in g rule = true ->
    (forall f r, parse g f rule input k = r -> r <> Fuel -> exists f', req (parse g' f' rule input k) r) /\
    (forall f r, parse g' f rule input k = r -> r <> Fuel -> exists f', req (parse g f' rule input k) r).
Proof.
  intros ND NS BP GD H. apply (ochk_sound g g' (2 * fuel)).
  eapply pass_inline_builtin_validated; eassumption.
Qed.
