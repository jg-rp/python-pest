(* OptPassCompose3.v — any sequence (any subset, order, repetition) of the THREE proved passes — unroll, inline
   built-in, inline silent — preserves every parse: the in-place pass preserves the hypotheses too. *)
From Coq Require Import List ZArith.
Import ListNotations.
From PP Require Import Base Syntax SpecSyn OptPass OptPassProof OptPassCompose OptPassSilent OptPassHeads OptPassSilentProof.
Open Scope nat_scope.

Section C.
Variable bi : N -> bool.

Lemma count_ok_silent_bu tbl : all_grammar count_ok tbl = true ->
  forall e, all_sub count_ok e = true -> all_sub count_ok (map_bu (inline_silent1 bi tbl) e) = true.
Proof.
  intros G. apply all_sub_map_bu; [exact count_ok_node|]. intros x Px Sx.
  assert (C : all_sub count_ok x = true) by (rewrite all_sub_eq, Px; exact Sx).
  destruct (inline_silent1_cases bi tbl x) as [->|[n [rt [_ [Lt [_ ->]]]]]]; [exact C|].
  exact (all_grammar_lookup count_ok tbl n rt G Lt).
Qed.

Lemma update_count tbl n b : all_grammar count_ok tbl = true -> all_sub count_ok b = true ->
  all_grammar count_ok (update tbl n b) = true.
Proof.
  intros G B. refine (all_grammar_rel count_ok _ _ _ _ (update_rel tbl n b) G).
  intros a b' [->| ->] C; [exact C|exact B].
Qed.

Lemma silent_count order tbl : all_grammar count_ok tbl = true ->
  all_grammar count_ok (fold_left (sstep bi) order tbl) = true.
Proof.
  apply (fold_left_inv (fun t => all_grammar count_ok t = true)). clear tbl. intros tbl n G.
  unfold sstep. destruct (bi n); [exact G|]. destruct (lookup tbl n) as [r|] eqn:L; [|exact G].
  apply update_count; [exact G|].
  apply (count_ok_silent_bu tbl G). exact (all_grammar_lookup count_ok tbl n r G L).
Qed.

Inductive pstep3 : grammar -> grammar -> Prop :=
| P3_old g g' : pstep bi g g' -> pstep3 g g'
| P3_silent g order : nodupN order = true -> pstep3 g (pass_inline_silent bi order g).

Inductive psteps3 : grammar -> grammar -> Prop :=
| P3S_nil g : psteps3 g g
| P3S_cons g g' g'' : pstep3 g g' -> psteps3 g' g'' -> psteps3 g g''.

Lemma pstep3_dom g g' : dom bi g -> pstep3 g g' -> dom bi g' /\ same_heads g g'.
Proof.
  intros D S. destruct S as [g g' S|g order NO]; [exact (pstep_dom bi g g' D S)|].
  pose proof (inline_silent_heads bi order g) as Hh. split; [|exact Hh].
  apply (dom_heads bi g); [exact Hh| |exact D].
  destruct D as [_ [_ [C _]]]. rewrite pass_inline_silent_fold. apply silent_count. exact C.
Qed.

Lemma pstep3_geq g g' : dom bi g -> pstep3 g g' -> geq g g'.
Proof.
  intros D S. destruct S as [g g' S|g order NO]; [exact (pstep_geq bi g g' D S)|].
  destruct D as [ND [NS _]]. intros rule input k Dr.
  exact (pass_inline_silent_sound bi order g ND NS NO rule input k Dr).
Qed.

Theorem psteps3_geq : forall g g', psteps3 g g' -> dom bi g -> geq g g'.
Proof.
  intros g g' S. induction S as [g|g g' g'' S1 _ IH]; intros D; [apply geq_refl|].
  destruct (pstep3_dom g g' D S1) as [D' Hh].
  exact (geq_step g g' g'' Hh (pstep3_geq g g' D S1) (IH D')).
Qed.
End C.
