From Coq Require Import List NArith Bool.
Import ListNotations.
From PP Require Import Base Syntax Spec Grammars JsonComplete.

(* Completeness of tests/grammars/json.pest (json_test_grammar) w.r.t. RFC 8259 documents (any
   top-level value).  Documents, renderings, skeletons, the derived rules and everything the two
   JSON grammars share are those of JsonComplete.v. *)

Open Scope N_scope.

Notation TG := json_test_grammar.

Definition t_digit := ERef 7 None.
Definition t_eE := EGrp (EAlt [EStr [69]; EStr [101]]) None.
Definition t_exp_body := ESeq [t_eE; e_sign; EPlus t_digit].
Definition t_int_body := EAlt [EStr [48]; ESeq [ERef 9 None; EStar t_digit]].
Definition t_fracexp :=
  EGrp (EAlt [ESeq [EStr [46]; EPlus t_digit; EOpt (ERef 6 None)]; ERef 6 None]) None.
Definition t_number_body := ESeq [EOpt (EStr [45]); ERef 8 None; EOpt t_fracexp].
Definition t_unicode_body := ESeq [EStr [117]; ERepN (ERef 12 None) 4].
Definition t_escs :=
  EGrp (EAlt [EStr [34]; EStr [92]; EStr [47]; EStr [98]; EStr [102]; EStr [110]; EStr [114];
              EStr [116]; ERef 11 None]) None.
Definition t_escape_body := ESeq [EStr [92]; t_escs].
Definition t_plain := EGrp (ESeq [e_notq; ERef 15 None]) None.
Definition t_escinner := EOpt (EGrp (ESeq [ERef 13 None; ERef 14 None]) None).
Definition t_inner_body := ESeq [EStar t_plain; t_escinner].
Definition t_value_body :=
  EAlt [ERef 16 None; ERef 10 None; ERef 18 None; ERef 19 None; ERef 5 None; ERef 4 None].
(* the non-empty alternative comes first in this grammar *)
Definition t_coll_body (k op cl : N) : expr := EAlt [e_full k op cl; e_empty op cl].
Definition t_pair_body := ESeq [ERef 16 None; EStr [58]; ERef 17 None].
Definition t_json_body := ESeq [ERef 22 None; ERef 17 None; ERef 3 None].

Lemma tk_ws : lookup TG 0 = Some (mkrule 0 true KNormal ws_body). Proof. reflexivity. Qed.
Lemma tk_eoi : lookup TG 3 = Some (mkrule 3 false KNormal EEoi). Proof. reflexivity. Qed.
Lemma tk_null : lookup TG 4 = Some (mkrule 4 false KNormal (EStr null_text)). Proof. reflexivity. Qed.
Lemma tk_bool : lookup TG 5 = Some (mkrule 5 false KNormal boolean_body). Proof. reflexivity. Qed.
Lemma tk_exp : lookup TG 6 = Some (mkrule 6 false KAtomic t_exp_body). Proof. reflexivity. Qed.
Lemma tk_digit : lookup TG 7 = Some (mkrule 7 true KNormal (ERange 48 57)). Proof. reflexivity. Qed.
Lemma tk_int : lookup TG 8 = Some (mkrule 8 false KAtomic t_int_body). Proof. reflexivity. Qed.
Lemma tk_nzdigit : lookup TG 9 = Some (mkrule 9 true KNormal (ERange 49 57)). Proof. reflexivity. Qed.
Lemma tk_number : lookup TG 10 = Some (mkrule 10 false KAtomic t_number_body). Proof. reflexivity. Qed.
Lemma tk_unicode : lookup TG 11 = Some (mkrule 11 false KAtomic t_unicode_body). Proof. reflexivity. Qed.
Lemma tk_hex : lookup TG 12 = Some (mkrule 12 true KNormal hex_body). Proof. reflexivity. Qed.
Lemma tk_escape : lookup TG 13 = Some (mkrule 13 false KAtomic t_escape_body). Proof. reflexivity. Qed.
Lemma tk_inner : lookup TG 14 = Some (mkrule 14 false KAtomic t_inner_body). Proof. reflexivity. Qed.
Lemma tk_any : lookup TG 15 = Some (mkrule 15 true KNormal EAny). Proof. reflexivity. Qed.
Lemma tk_string : lookup TG 16 = Some (mkrule 16 false KAtomic string_body). Proof. reflexivity. Qed.
Lemma tk_value : lookup TG 17 = Some (mkrule 17 false KNormal t_value_body). Proof. reflexivity. Qed.
Lemma tk_object : lookup TG 18 = Some (mkrule 18 false KNormal (t_coll_body 20 123 125)). Proof. reflexivity. Qed.
Lemma tk_array : lookup TG 19 = Some (mkrule 19 false KNormal (t_coll_body 17 91 93)). Proof. reflexivity. Qed.
Lemma tk_pair : lookup TG 20 = Some (mkrule 20 false KNormal t_pair_body). Proof. reflexivity. Qed.
Lemma tk_json : lookup TG 21 = Some (mkrule 21 false KNormal t_json_body). Proof. reflexivity. Qed.
Lemma tk_soi : lookup TG 22 = Some (mkrule 22 true KNormal ESoi). Proof. reflexivity. Qed.
Lemma t_skip : skip_expr TG = Some (EStar (ERef 0 None)). Proof. reflexivity. Qed.

(* int and exp are atomic rules of their own *)

Lemma M_tint c i pre post : c_atom c = Atomic -> wf_int i = true -> hdP nf0 post = true ->
  M TG c (TEval (ERef 8 None)) pre i post [].
Proof.
  intros Hc H Hp. apply (M_aref TG c 8 KAtomic t_int_body pre i post [] tk_int I Hc).
  apply (M_int_alt TG 7 9 tk_digit tk_nzdigit); [cbn; discriminate|exact H|exact Hp].
Qed.

Lemma F_texp c pre r :
  match r with [] => True | d :: _ => (d =? 101) = false /\ (d =? 69) = false end ->
  F TG c (TEval (ERef 6 None)) pre r.
Proof.
  intros H. eapply F_ref; [exact tk_exp|]. apply F_seq. apply Fs_first. apply F_grp. apply F_alt.
  apply (Fa_lits TG _ [69; 101] []); [|apply Fa_nil]. destruct r as [|d r]; [exact I|].
  destruct H as [A B]. cbn [memN]. rewrite A, B. reflexivity.
Qed.

Definition sg_text (sg : option N) : text := match sg with Some s => [s] | None => [] end.

Lemma M_texp c e sg ds pre post : c_atom c = Atomic -> wf_expo (e, sg, ds) = true ->
  hdP nf0 post = true ->
  M TG c (TEval (ERef 6 None)) pre (e :: sg_text sg ++ ds) post [].
Proof.
  intros Hc H Hp. apply (M_aref TG c 6 KAtomic t_exp_body pre _ post [] tk_exp I Hc). apply M_seq.
  apply (M_exp_seq TG 7 tk_digit); [cbn; discriminate| |exact H|exact Hp].
  intros pre0 post0. apply M_grp. apply M_alt. apply (Ma_lits TG _ [69; 101] []).
  cbn [memN]. rewrite orb_false_r, orb_comm. exact (wf_expo_e e sg ds H).
Qed.

Lemma M_topt_exp c n pre post : c_atom c = Atomic ->
  (forall x, expo n = Some x -> wf_expo x = true) -> hdP nf2 post = true ->
  M TG c (TEval (EOpt (ERef 6 None))) pre (expo_text n) post [].
Proof.
  intros Hc He Hp. destruct (nf2_parts post Hp) as [Hp1 HpE]. unfold expo_text.
  destruct (expo n) as [[[e sg] es]|].
  - apply M_opt_some. apply M_texp; [exact Hc|apply He; reflexivity|apply nf1_parts; exact Hp1].
  - apply M_opt_none. apply F_texp. exact HpE.
Qed.

(* (. ASCII_DIGIT+ exp? | exp)? *)
Lemma M_tfracexp c n pre post : c_atom c = Atomic ->
  (forall ds, frac n = Some ds -> wf_digits ds = true) ->
  (forall x, expo n = Some x -> wf_expo x = true) -> hdP nf2 post = true ->
  M TG c (TEval (EOpt t_fracexp)) pre (frac_text n ++ expo_text n) post [].
Proof.
  intros Hc Hf He Hp. pose proof (atomic_not_na c Hc) as Hn.
  pose proof (hd_expo n post He Hp) as H1. destruct (nf1_parts _ H1) as [H0 H46].
  unfold frac_text. destruct (frac n) as [fs|].
  - apply M_opt_some. apply M_grp. apply M_alt. apply Ma_first. apply M_seq.
    apply (Ms_cons_a TG [46] (fs ++ expo_text n) [] []); [exact Hn|apply M_str|].
    apply (Ms_cons_a TG fs (expo_text n) [] []);
      [exact Hn|apply (M_digits1 TG 7 tk_digit c Hn); [apply Hf; reflexivity|exact H0]|].
    apply Ms_one. apply M_topt_exp; assumption.
  - cbn [app] in *. assert (Fdot : F TG c (TEval (ESeq [EStr [46]; EPlus t_digit; EOpt (ERef 6 None)]))
                                      pre (expo_text n ++ post)).
    { apply F_seq. apply Fs_first. apply F_str. apply sp1. exact H46. }
    unfold expo_text in *. destruct (expo n) as [[[e sg] es]|].
    + apply M_opt_some. apply M_grp. apply M_alt. apply Ma_next; [exact Fdot|]. apply Ma_first.
      apply M_texp; [exact Hc|apply He; reflexivity|].
      destruct (nf2_parts post Hp) as [Hp1 _]. apply nf1_parts. exact Hp1.
    + apply M_opt_none. apply F_grp. apply F_alt.
      apply Fa_cons; [exact Fdot|apply Fa_cons; [|apply Fa_nil]].
      apply F_texp. apply nf2_parts. exact Hp.
Qed.

Lemma M_tnumber_body c n pre post : c_atom c = Atomic -> wf_jnum n = true -> hdP nf2 post = true ->
  M TG c (TEval t_number_body) pre (num_text n) post [].
Proof.
  intros Hc H Hp. pose proof (atomic_not_na c Hc) as Hn. destruct (wf_jnum_parts n H) as [Hi [Hf He]].
  pose proof (hd_frac n _ (hd_expo n post He Hp)) as H0.
  destruct (wf_int_head _ Hi) as [d [ds [Ei Hd]]].
  unfold t_number_body, num_text. apply M_seq.
  apply (Ms_cons_a TG (sign_text n) _ [] []);
    [exact Hn|rewrite Ei; apply (M_minus TG c n pre d _ Hd)|].
  apply (Ms_cons_a TG (int_part n) _ [] []);
    [exact Hn|rewrite <- app_assoc; apply M_tint; assumption|].
  apply Ms_one. apply M_tfracexp; assumption.
Qed.

(* `number` and `string` on their own: both rules are atomic and yield one childless pair *)
Theorem number_complete_t : forall c n pre post, c_atom c = NonAtomic -> wf_jnum n = true ->
  hdP nf2 post = true ->
  M TG c (TEval (ERef 10 None)) pre (num_text n) post
    [Pair 10 (lenN pre) (lenN (pre ++ num_text n)) [] None].
Proof.
  intros c n pre post Hc H Hp.
  apply (M_vref TG c 10 false KAtomic t_number_body pre _ post [] tk_number (na_not_atomic c Hc)).
  apply M_tnumber_body; [reflexivity|exact H|exact Hp].
Qed.

Lemma number_starts_t : starts_with TG 10 (fun d => is_digit d || (d =? 45)).
Proof.
  intros c pre r H. eapply F_ref; [exact tk_number|].
  apply (F_number_seq TG _ (ERef 8 None) [EOpt t_fracexp]); [cbn; discriminate| |exact H].
  apply (rej_ref TG _ _ _ tk_int). exact (F_int_alt TG 7 9 tk_nzdigit).
Qed.

(* inner = plain* ~ (escape ~ inner)? *)

Definition is_plain (d : N) : bool := negb (d =? 34) && negb (d =? 92).

Lemma M_tplains c ps pre d post : c_atom c <> NonAtomic -> forallb is_plain ps = true ->
  (d =? 34) || (d =? 92) = true ->
  M TG c (TEval (EStar t_plain)) pre ps (d :: post) [].
Proof.
  intros Hc H Hd. apply (M_star_class TG c t_plain is_plain (eq (d :: post)) Hc); [| |exact H|reflexivity].
  - intros pre0 d0 post0 H0. unfold is_plain in H0. apply andb_prop in H0. destruct H0 as [H1 H2].
    apply negb_true_iff in H1. apply negb_true_iff in H2. apply M_grp. apply M_seq.
    exact (M_plain_seq TG c 15 pre0 d0 post0 tk_any Hc H1 H2).
  - intros pre0 post0 <-. apply F_grp. apply F_seq. apply Fs_first. apply F_notq_fail. exact Hd.
Qed.

Definition nonplain (j : jchar) : Prop := match j with JPlain _ => False | _ => True end.

Lemma nonplain_head j : nonplain j -> exists r, jchar_text j = 92 :: r.
Proof. destruct j; [contradiction| |]; intros _; eexists; reflexivity. Qed.

Lemma M_tescape c j pre post : c_atom c = Atomic -> wf_jchar j = true -> nonplain j ->
  M TG c (TEval (ERef 13 None)) pre (jchar_text j) post [].
Proof.
  intros Hc H Hj. apply (M_aref TG c 13 KAtomic t_escape_body pre _ post [] tk_escape I Hc).
  set (c1 := rule_ctx c _). assert (Hn : c_atom c1 <> NonAtomic) by (cbn; discriminate).
  apply M_seq. destruct j as [ch|ch|h1 h2 h3 h4]; [contradiction| |]; cbn [jchar_text wf_jchar] in *.
  - exact (M_esc_seq TG c1 [ERef 11 None] pre ch post Hn H).
  - apply (Ms_cons_a TG [92] [117; h1; h2; h3; h4] [] []); [exact Hn|apply M_str|].
    apply Ms_one. apply M_grp. apply M_alt.
    do 8 (apply Ma_next; [apply F_str; reflexivity|]). apply Ma_first.
    apply (M_aref TG c1 11 KAtomic t_unicode_body _ _ post [] tk_unicode I eq_refl). apply M_seq.
    apply (M_uni_seq TG 12 tk_hex); [cbn; discriminate|exact H].
Qed.

(* one unfolding of inner at an escape *)
Lemma inner_step c j s' ps pre post : c_atom c = Atomic -> wf_jchar j = true -> nonplain j ->
  forallb is_plain ps = true ->
  (forall c' pre', c_atom c' = Atomic ->
     M TG c' (TEval t_inner_body) pre' (chars_text s') (34 :: post) []) ->
  M TG c (TEval t_inner_body) pre (ps ++ jchar_text j ++ chars_text s') (34 :: post) [].
Proof.
  intros Hc Hj Hnp Hps IH. pose proof (atomic_not_na c Hc) as Hn.
  destruct (nonplain_head j Hnp) as [jr Ej].
  apply M_seq. apply (Ms_cons_a TG ps _ [] []); [exact Hn| |].
  - rewrite Ej. apply M_tplains; [exact Hn|exact Hps|reflexivity].
  - apply Ms_one. apply M_opt_some. apply M_grp. apply M_seq.
    apply (Ms_cons_a TG (jchar_text j) (chars_text s') [] []);
      [exact Hn|apply M_tescape; assumption|].
    apply Ms_one. apply (M_aref TG c 14 KAtomic t_inner_body _ _ _ [] tk_inner I Hc).
    apply IH. reflexivity.
Qed.

Lemma M_tinner_gen : forall s ps c pre post, c_atom c = Atomic ->
  forallb wf_jchar s = true -> forallb is_plain ps = true ->
  M TG c (TEval t_inner_body) pre (ps ++ chars_text s) (34 :: post) [].
Proof.
  induction s as [|j s IH]; intros ps c pre post Hc Hs Hps.
  - pose proof (atomic_not_na c Hc) as Hn. cbn [chars_text]. apply M_seq.
    apply (Ms_cons_a TG ps [] [] []);
      [exact Hn|apply M_tplains; [exact Hn|exact Hps|reflexivity]|].
    apply Ms_one. apply M_opt_none. apply F_grp. apply F_seq. apply Fs_first.
    apply (rej_ref_lit TG 13 _ _ 92 _ tk_escape). reflexivity.
  - cbn [forallb] in Hs. apply andb_prop in Hs. destruct Hs as [Hj Hs]. cbn [chars_text].
    destruct j as [ch|ch|h1 h2 h3 h4].
    + cbn [jchar_text]. rewrite app_assoc. apply (IH (ps ++ [ch]) c pre post Hc Hs).
      rewrite forallb_app, Hps. cbn [forallb wf_jchar] in *. unfold is_plain. rewrite Hj. reflexivity.
    + apply inner_step; [exact Hc|exact Hj|exact I|exact Hps|].
      intros c' pre' Hc'. exact (IH [] c' pre' post Hc' Hs eq_refl).
    + apply inner_step; [exact Hc|exact Hj|exact I|exact Hps|].
      intros c' pre' Hc'. exact (IH [] c' pre' post Hc' Hs eq_refl).
Qed.

Theorem string_complete_t : forall c s pre post, c_atom c = NonAtomic -> forallb wf_jchar s = true ->
  M TG c (TEval (ERef 16 None)) pre (str_text s) post
    [Pair 16 (lenN pre) (lenN (pre ++ str_text s)) [] None].
Proof.
  intros c s pre post Hc H.
  apply (M_vref TG c 16 false KAtomic string_body pre _ post [] tk_string (na_not_atomic c Hc)).
  apply M_seq. apply M_string_seq; [cbn; discriminate|].
  apply (M_aref TG _ 14 KAtomic t_inner_body _ _ _ [] tk_inner I); [reflexivity|].
  apply (M_tinner_gen s []); [reflexivity|exact H|reflexivity].
Qed.

(* `msk_t v k`: k is the tree of v under tests/grammars/json.pest.  Every value is a `value`
   pair (17) with exactly one child: null (4), bool (5), number (10), string (16), object (18)
   or array (19), over the same slice.  string and number are atomic and have no children;
   object children are pair (20) nodes = [string; value]. *)
Inductive msk_t : jv -> sk -> Prop :=
| KT_value v n sl kids : core_t v (SK n sl kids) -> msk_t v (SK 17 sl [SK n sl kids])
with core_t : jv -> sk -> Prop :=
| KT_null : core_t JNull (SK 4 null_text [])
| KT_bool b : core_t (JBool b) (SK 5 (bool_text b) [])
| KT_num n : core_t (JNum n) (SK 10 (num_text n) [])
| KT_str s : core_t (JStr s) (SK 16 (str_text s) [])
| KT_arr vs sl kids :
    renders (JArr vs) sl -> Forall2 msk_t vs kids -> core_t (JArr vs) (SK 19 sl kids)
| KT_obj ms sl kids :
    renders (JObj ms) sl -> Forall2 mmsk_t ms kids -> core_t (JObj ms) (SK 18 sl kids)
with mmsk_t : list jchar * jv -> sk -> Prop :=
| KT_member k v wa wb x kv :
    ws wa -> ws wb -> renders v x -> msk_t v kv ->
    mmsk_t (k, v) (SK 20 (member_text k wa wb x) [SK 16 (str_text k) []; kv]).

(* ONE pair json (21) spanning the whole input, whose children are the tree of v and EOI (3) *)
Definition mirrors_t (input : text) (v : jv) (tree : list pair) : Prop :=
  exists top, map (skel input) tree = [SK 21 input [top; SK 3 [] []]] /\ msk_t v top.

Definition t_value_tab : list (N * (N -> bool)) :=
  [(16, fun d => d =? 34); (10, fun d => is_digit d || (d =? 45)); (18, fun d => d =? 123);
   (19, fun d => d =? 91); (5, fun d => (d =? 116) || (d =? 102)); (4, fun d => d =? 110)].

Lemma t_value_starts : Forall (fun a => starts_with TG (fst a) (snd a)) t_value_tab.
Proof.
  repeat apply Forall_cons; [| | | | | |apply Forall_nil]; cbn [fst snd].
  - exact (rej_ref_lit TG 16 _ _ 34 _ tk_string).
  - exact number_starts_t.
  - exact (coll_starts TG 18 _ _ _ 20 123 125 tk_object (or_intror eq_refl)).
  - exact (coll_starts TG 19 _ _ _ 17 91 93 tk_array (or_intror eq_refl)).
  - exact (boolean_starts TG 5 _ _ tk_bool).
  - exact (null_starts TG 4 _ _ tk_null).
Qed.

(* `value` wraps the pair of the chosen rule into a pair of its own over the same span *)
Lemma value_of_rule_t n v d x' : pick t_value_tab d = Some n ->
  elemP TG n jv core_t v (d :: x') -> elemP TG 17 jv msk_t v (d :: x').
Proof.
  exact (value_of TG 17 false t_value_tab core_t msk_t n v d x' tk_value eq_refl t_value_starts
           (KT_value v)).
Qed.

Lemma scalar_value_t v x : renders v x -> wf_jv v = true -> ~ top_level v -> elemP TG 17 jv msk_t v x.
Proof.
  intros Hr Hw Ht. destruct Hr; try (exfalso; apply Ht; exact I).
  - apply (value_of_rule_t 4); [reflexivity|]. apply null_elem; [exact tk_null|apply KT_null].
  - destruct b; apply (value_of_rule_t 5);
      (reflexivity || (apply bool_elem; [exact tk_bool|apply KT_bool])).
  - cbn [wf_jv] in Hw. destruct (num_head n Hw) as [d [x' [E Hd]]].
    assert (H : elemP TG 10 jv core_t (JNum n) (num_text n)).
    { apply leaf_elem; [|apply KT_num]. intros c pre post Hc Hf.
      apply number_complete_t; [exact Hc|exact Hw|apply follow_nf2; exact Hf]. }
    rewrite E in *. apply (value_of_rule_t 10); [|exact H].
    destruct (num_start_facts d Hd) as [_ [_ [_ [_ A3]]]].
    unfold pick. cbn [find t_value_tab snd fst]. rewrite A3, Hd. reflexivity.
  - apply (value_of_rule_t 16); [reflexivity|]. apply leaf_elem; [|apply KT_str].
    intros c pre post Hc _. apply string_complete_t; assumption.
Qed.

Theorem value_complete_all_t : value_completeP TG 17 19 18 20 msk_t core_t mmsk_t.
Proof.
  apply (value_complete_gen TG (MS_ws TG tk_ws t_skip) 17 19 18 20 16 _ _
           tk_array (or_intror eq_refl) tk_object (or_intror eq_refl) tk_pair eq_refl eq_refl eq_refl
           msk_t core_t (fun s k => k = SK 16 (str_text s) []) mmsk_t KT_arr KT_obj).
  - intros k v wa wb x ks kv Hwa Hwb Hr -> Hv. apply KT_member; assumption.
  - intros s c input pre post H Hc _. exists []. split; [apply string_complete_t; assumption|reflexivity].
  - exact (rej_ref_lit TG 16 _ _ 34 _ tk_string).
  - intros c pre post. exact (value_fails TG 17 false t_value_tab c pre 93 post tk_value t_value_starts eq_refl).
  - exact scalar_value_t.
  - intros vs x'. apply (value_of_rule_t 19). reflexivity.
  - intros ms x'. apply (value_of_rule_t 18). reflexivity.
Qed.

(* COMPLETENESS: every RFC 8259 text (any top-level value) is accepted by
   tests/grammars/json.pest, the whole input is consumed, and the parse tree mirrors it. *)
Theorem json_test_complete : forall v text, wf_jv v = true -> renders_doc v text ->
  exists f s tree,
    parse json_test_grammar f json_test_grammar_start text 0 = Ok s tree /\ s_rest s = [] /\
    mirrors_t text v tree.
Proof.
  intros v text Hwf Hdoc. destruct Hdoc as [v w1 x w2 Hw1 Hr Hw2].
  destruct (proj1 value_complete_all_t v x Hr Hwf) as [Hv _].
  destruct (doc_complete TG (MS_ws TG tk_ws t_skip) 21 false 22 (ERef 17 None) jv msk_t v w1 x w2 tk_json tk_soi
              tk_eoi eq_refl Hw1 Hw2 (renders_hd v x w2 Hr Hwf)) as [f [s [tree [top [E [Hs [Hk Ht]]]]]]].
  { apply Y_elem; [exact Hv|reflexivity|exact (ws_follow w2 Hw2)]. }
  exists f, s, tree. split; [exact E|]. split; [exact Hs|]. exists top. split; assumption.
Qed.

(* the document of JsonComplete.v *)
Example ex_accepted_t : exists f s tree,
  parse json_test_grammar f json_test_grammar_start ex_text 0 = Ok s tree /\ s_rest s = [] /\
  mirrors_t ex_text ex_v tree.
Proof. exact (json_test_complete ex_v ex_text ex_wf ex_renders). Qed.

(* running the reference semantics agrees *)
Definition ex_run_t : res := parse json_test_grammar 200 json_test_grammar_start ex_text 0.

Definition tstr (s : list jchar) : sk := SK 16 (str_text s) [].
Definition tval (k : sk) : sk := match k with SK _ sl _ => SK 17 sl [k] end.

Example ex_parse_ok_t :
  match ex_run_t with
  | Ok s tree =>
      s_rest s = [] /\ s_pos s = lenN ex_text /\
      map (skel ex_text) tree =
        [ SK 21 ex_text
          [ tval (SK 18 (firstn 76 (skipn 1 ex_text))
              [ SK 20 (firstn 53 (skipn 2 ex_text))
                  [ tstr ex_key;
                    tval (SK 19 (firstn 39 (skipn 16 ex_text))
                      [ tval (SK 10 (num_text ex_num1) []);
                        tval (SK 10 (num_text ex_num2) []);
                        tval (SK 5 (bool_text true) []);
                        tval (SK 5 (bool_text false) []);
                        tval (SK 4 null_text []);
                        tval (tstr [JPlain 120; JEsc 92]) ]) ];
                SK 20 (firstn 7 (skipn 57 ex_text)) [ tstr [JPlain 111]; tval (SK 18 [123; 32; 125] []) ];
                SK 20 (firstn 9 (skipn 67 ex_text)) [ tstr [JPlain 101]; tval (SK 19 [91; 9; 93] []) ] ]);
            SK 3 [] [] ] ]
  | _ => False
  end.
Proof. vm_compute. repeat split. Qed.

(* a scalar top level (not allowed by examples/json/json.pest): <LF>-1.50E-7<SP>, and 1e5 through
   the `| exp` alternative *)
Definition ex_num3 : jnum :=
  {| neg := true; int_part := [49]; frac := Some [53; 48]; expo := Some (69, Some 45, [55]) |}.
Definition ex_num4 : jnum := {| neg := false; int_part := [49]; frac := None; expo := Some (101, None, [53]) |}.
Definition ex_text3 : text := [10; 45; 49; 46; 53; 48; 69; 45; 55; 32].
Definition ex_text4 : text := [49; 101; 53].

Example ex_renders3 : renders_doc (JNum ex_num3) ex_text3.
Proof. exact (R_doc (JNum ex_num3) [10] _ [32] eq_refl (R_num ex_num3) eq_refl). Qed.
Example ex_renders4 : renders_doc (JNum ex_num4) ex_text4.
Proof. exact (R_doc (JNum ex_num4) [] _ [] eq_refl (R_num ex_num4) eq_refl). Qed.

Example ex_accepted3 : exists f s tree,
  parse json_test_grammar f json_test_grammar_start ex_text3 0 = Ok s tree /\ s_rest s = [] /\
  mirrors_t ex_text3 (JNum ex_num3) tree.
Proof. exact (json_test_complete (JNum ex_num3) ex_text3 eq_refl ex_renders3). Qed.

Example ex_parse_ok3 :
  match parse json_test_grammar 100 json_test_grammar_start ex_text3 0 with
  | Ok s tree =>
      s_rest s = [] /\
      map (skel ex_text3) tree =
        [ SK 21 ex_text3 [ tval (SK 10 (num_text ex_num3) []); SK 3 [] [] ] ]
  | _ => False
  end.
Proof. vm_compute. repeat split. Qed.

Example ex_parse_ok4 :
  match parse json_test_grammar 100 json_test_grammar_start ex_text4 0 with
  | Ok s tree =>
      s_rest s = [] /\
      map (skel ex_text4) tree =
        [ SK 21 ex_text4 [ tval (SK 10 (num_text ex_num4) []); SK 3 [] [] ] ]
  | _ => False
  end.
Proof. vm_compute. repeat split. Qed.

Print Assumptions number_complete_t.
Print Assumptions string_complete_t.
Print Assumptions value_complete_all_t.
Print Assumptions ex_accepted_t.
Print Assumptions json_test_complete.
