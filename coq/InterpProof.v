(* InterpProof.v — the interpreter model (Interp.v) refines the reference semantics (Spec.v).
   Under `Hsil` (every silent rule is `silent_ok`) one induction on the interpreter's fuel, with
   one lemma per construct, gives `sim_all`: a call from a state that fits its context (`pre`)
   either ends as the reference does (`post`, and keeps the `frame`), or runs out of fuel, and
   then the reference needs more than about a third of that fuel (`starved`).  `iparse_refines`
   is the first half at the entry point; GenProof.v reads termination off the second. *)
From Coq Require Import List ZArith Bool Lia.
Import ListNotations.
From PP Require Import Base Syntax Spec SpecSyn SpecMono SpecLaws SpecEquiv Interp.

Section PairInd.
Variable P : pair -> Prop.
Hypothesis HP : forall n s e kids tag, Forall P kids -> P (Pair n s e kids tag).
Fixpoint pair_ind2 (p : pair) : P p :=
  match p with
  | Pair n s e kids tag =>
      HP n s e kids tag
        ((fix go (l : list pair) : Forall P l :=
            match l with
            | [] => Forall_nil P
            | k :: l' => Forall_cons k (pair_ind2 k) (go l')
            end) kids)
  end.
End PairInd.

Section R.
Variable g : grammar.

Definition abs_st (s : ist) : st :=
  {| s_pos := i_pos s; s_rest := i_rest s; s_stk := i_user s; s_tags := i_tags s; s_trk := i_trk s |}.

Lemma vis_pair_eq n s e kids tag :
  vis_pair g (Pair n s e kids tag) = if keeps g n then [Pair n s e kids tag] else vis g kids.
Proof.
  cbn [vis_pair]. destruct (keeps g n); [reflexivity|].
  induction kids as [|k ks IH]; [reflexivity|]. cbn [vis]. rewrite IH. reflexivity.
Qed.

Lemma vis_app a b : vis g (a ++ b) = vis g a ++ vis g b.
Proof.
  induction a as [|p a IH]; [reflexivity|]. cbn [vis app]. rewrite IH. apply app_assoc.
Qed.

Lemma vis_single n s e kids tag :
  vis g [Pair n s e kids tag] = if keeps g n then [Pair n s e kids tag] else vis g kids.
Proof. cbn [vis]. rewrite app_nil_r. apply vis_pair_eq. Qed.

Lemma vis_pair_idem : forall p, vis g (vis_pair g p) = vis_pair g p.
Proof.
  apply pair_ind2. intros n s e kids tag HK. rewrite vis_pair_eq.
  destruct (keeps g n) eqn:K.
  - rewrite vis_single, K. reflexivity.
  - induction HK as [|k ks Hk _ IH]; [reflexivity|].
    cbn [vis]. rewrite vis_app, Hk, IH. reflexivity.
Qed.

Lemma vis_idem : forall ps, vis g (vis g ps) = vis g ps.
Proof.
  induction ps as [|p ps IH]; [reflexivity|]. cbn [vis]. rewrite vis_app, vis_pair_idem, IH. reflexivity.
Qed.

Lemma keeps_lookup n r : lookup g n = Some r ->
  keeps g n = match r_kind r with KCompound | KNonAtomic => true | _ => false end.
Proof. intros H. unfold keeps. rewrite H. reflexivity. Qed.

(* what the reference semantics shows of the interpreter's pairs in context c *)
Definition hide (c : ctx) (ps : list pair) : list pair :=
  match c_atom c with Atomic => vis g ps | _ => ps end.

Lemma hide_app c a b : hide c (a ++ b) = hide c a ++ hide c b.
Proof. unfold hide. destruct (c_atom c); try reflexivity. apply vis_app. Qed.
Lemma hide_nil c : hide c [] = [].
Proof. unfold hide. destruct (c_atom c); reflexivity. Qed.
Lemma hide_id c ps : c_atom c <> Atomic -> hide c ps = ps.
Proof. unfold hide. destruct (c_atom c); congruence. Qed.

Definition frame (s s' : ist) : Prop :=
  i_saved s' = i_saved s /\ i_dcps s' = i_dcps s /\ i_rules s' = i_rules s /\
  i_depth s' = i_depth s /\ i_neg s' = i_neg s /\ i_sup s' = i_sup s.

Lemma frame_refl s : frame s s.
Proof. repeat split. Qed.
Lemma frame_trans a b c : frame a b -> frame b c -> frame a c.
Proof.
  intros [A1 [A2 [A3 [A4 [A5 A6]]]]] [B1 [B2 [B3 [B4 [B5 B6]]]]].
  repeat split; congruence.
Qed.

Definition cxb (c : ctx) (s : ist) : Prop := c_neg c = i_neg s /\ c_sup c = i_sup s.
Definition cxa (c : ctx) (s : ist) : Prop := c_atom c = NonAtomic <-> i_depth s = 0.
Definition cxr (c : ctx) (s : ist) : Prop := hd_error (i_rules s) = Some (c_rule c).
Definition cx (c : ctx) (s : ist) : Prop := cxb c s /\ cxa c s /\ cxr c s.

Lemma cx_fields c s s2 : i_rules s2 = i_rules s -> i_depth s2 = i_depth s -> i_neg s2 = i_neg s ->
  i_sup s2 = i_sup s -> cx c s -> cx c s2.
Proof.
  intros A B C D [[E1 E2] [E3 E4]]. unfold cx, cxb, cxa, cxr. rewrite A, B, C, D.
  repeat split; try assumption; apply E3.
Qed.

Lemma cx_frame c s s' : frame s s' -> cx c s -> cx c s'.
Proof. intros (_ & _ & A3 & A4 & A5 & A6). exact (cx_fields c s s' A3 A4 A5 A6). Qed.
Lemma cxb_frame c s s' : frame s s' -> cxb c s -> cxb c s'.
Proof.
  intros [A1 [A2 [A3 [A4 [A5 A6]]]]] [B1 B2]. unfold cxb. rewrite A5, A6. split; assumption.
Qed.

(* entering and leaving the scope of a negative predicate *)
Lemma cx_neg c s : cx c s -> cx (neg_ctx c) (upd_neg s (S (i_neg s))).
Proof. intros [[A B] [C Dr]]. split; [split; cbn; congruence|]. split; [exact C|exact Dr]. Qed.

Lemma neg_out s s2 : frame (upd_neg s (S (i_neg s))) s2 -> frame s (upd_neg s2 (pred (i_neg s2))).
Proof.
  intros [A1 [A2 [A3 [A4 [A5 A6]]]]]. repeat split; try assumption. cbn. rewrite A5. reflexivity.
Qed.

Lemma ifail_some c s force n : cxb c s ->
  ifail s force (Some n) = Some (upd_trk s (record c force n (abs_st s))).
Proof.
  intros [A B]. unfold ifail, record. rewrite A, B. destruct s; cbn.
  destruct (_ || _); reflexivity.
Qed.

Lemma ifail_none c s force : cxr c s -> ifail s force None = ifail s force (Some (c_rule c)).
Proof. intros H. unfold ifail. red in H. rewrite H. reflexivity. Qed.

Lemma fail_here_eq c s : cx c s ->
  fail_here s = IOk false (upd_trk s (record c false (c_rule c) (abs_st s))) [].
Proof.
  intros [A [_ B]]. unfold fail_here. rewrite (ifail_none c s false B), (ifail_some c s false _ A).
  reflexivity.
Qed.

(* `ok()` and `restore()` after a finished call that started on the caller's checkpoint; the
   negative predicate runs the call at another negation depth n *)

Lemma commit s s1 : frame (icheckpoint s) s1 ->
  exists s2, iok s1 = Some s2 /\ abs_st s2 = abs_st s1 /\ frame s s2.
Proof.
  intros (A1 & A2 & A3 & A4 & A5 & A6). unfold iok. rewrite A1. cbn [i_saved icheckpoint].
  eexists. split; [reflexivity|]. split; [reflexivity|].
  unfold frame. cbn. rewrite A2. repeat split; assumption.
Qed.

Lemma rollback_at s n s1 : frame (upd_neg (icheckpoint s) n) s1 ->
  exists s2, irestore s1 = Some s2 /\ abs_st s2 = set_trk (abs_st s) (i_trk s1) /\ i_trk s2 = i_trk s1 /\
    frame (upd_neg s n) s2.
Proof.
  intros (A1 & A2 & A3 & A4 & A5 & A6). unfold irestore. rewrite A1, A2. cbn.
  eexists. split; [reflexivity|]. repeat split; assumption.
Qed.

Lemma rollback s s1 : frame (icheckpoint s) s1 ->
  exists s2, irestore s1 = Some s2 /\ abs_st s2 = set_trk (abs_st s) (i_trk s1) /\ i_trk s2 = i_trk s1 /\
    frame s s2.
Proof. exact (rollback_at s (i_neg s) s1). Qed.

(* introduction rules for the fuel-independent big-step relation of the reference semantics *)

Notation R := (runs g).

Definition skips (c : ctx) (s : st) (r : res) : Prop :=
  exists f, skip_with g (fun c' e' => run g f c' (TEval e')) c s = r /\ r <> Fuel.

Lemma nofuel c t s : ~ R c t s Fuel.
Proof. intros [f [_ D]]. congruence. Qed.

Lemma r_wrap1 c t s c1 t1 s1 (K : res -> res) :
  (forall f, run g (S f) c t s = K (run g f c1 t1 s1)) ->
  (forall r, r <> Fuel -> K r <> Fuel) ->
  forall r1, R c1 t1 s1 r1 -> R c t s (K r1).
Proof.
  intros E HK r1 [f [H D]]. exists (S f). rewrite E, H. split; [reflexivity|apply HK; exact D].
Qed.

Lemma r_seq c es s r : R c (TSeq es) s r -> R c (TEval (ESeq es)) s r.
Proof. apply runs_step. reflexivity. Qed.
Lemma r_alt c es s r : R c (TAlt es) s r -> R c (TEval (EAlt es)) s r.
Proof. apply runs_step. reflexivity. Qed.

Lemma r_ref c n tag s r r1 : lookup g n = Some r ->
  R (rule_ctx c r) (TEval (r_body r)) (push_tag tag s) r1 ->
  R c (TEval (ERef n tag)) s
    (match r1 with
     | Ok s1 kids => let '(s2, ps) := finish_rule c r (s_pos s) s1 kids in Ok (pop_tag tag s2) ps
     | x => x end).
Proof.
  intros L. revert r1. apply r_wrap1.
  - intros f. cbn [run]. rewrite L. destruct (run g f _ _ _); reflexivity.
  - intros r0 D. destruct r0; try congruence. destruct (finish_rule _ _ _ _ _). discriminate.
Qed.

Lemma r_ref_undef c n tag s : lookup g n = None -> R c (TEval (ERef n tag)) s Err.
Proof. intros L. exists 1. cbn [run]. rewrite L. split; [reflexivity|discriminate]. Qed.

Lemma pos_push_tag tag s : s_pos (push_tag tag s) = s_pos s.
Proof. destruct tag; reflexivity. Qed.

Lemma r_ref_tag c n tag s r1 : R c (TEval (ERef n None)) (push_tag tag s) r1 ->
  R c (TEval (ERef n tag)) s (match r1 with Ok s2 ps => Ok (pop_tag tag s2) ps | x => x end).
Proof.
  intros [f [H D]]. destruct f as [|f]; [cbn in H; congruence|].
  exists (S f). cbn [run] in *. destruct (lookup g n) as [r|]; [|subst r1; split; [reflexivity|discriminate]].
  cbn [push_tag] in H. rewrite pos_push_tag in H.
  destruct (run g f (rule_ctx c r) (TEval (r_body r)) (push_tag tag s)) as [s1 kids|t| |];
    try (subst r1; split; [reflexivity|congruence]).
  destruct (finish_rule c r (s_pos s) s1 kids) as [s2 ps]. cbn [pop_tag] in H. subst r1.
  split; [reflexivity|discriminate].
Qed.

Definition notok (r : res) : Prop := match r with Ok _ _ => False | Fuel => False | _ => True end.

Lemma r_tseq_bad c e es s r : R c (TEval e) s r -> notok r -> R c (TSeq (e :: es)) s r.
Proof.
  intros A N. destruct es as [|e2 es]; [apply runs_seq_one; exact A|].
  apply runs_seq_cons. exists r. split; [exact A|]. destruct r; try reflexivity; contradiction.
Qed.
Lemma r_tseq_skipbad c e1 e2 es s s1 p1 r : R c (TEval e1) s (Ok s1 p1) -> skips c s1 r -> notok r ->
  R c (TSeq (e1 :: e2 :: es)) s r.
Proof.
  intros A B N. apply runs_seq_cons. exists (Ok s1 p1). split; [exact A|]. exists r. split; [exact B|].
  destruct r; try reflexivity; contradiction.
Qed.
Lemma r_tseq_ok c e1 e2 es s s1 p1 s2 pw r :
  R c (TEval e1) s (Ok s1 p1) -> skips c s1 (Ok s2 pw) -> R c (TSeq (e2 :: es)) s2 r ->
  R c (TSeq (e1 :: e2 :: es)) s (match r with Ok s3 p3 => Ok s3 (p1 ++ pw ++ p3) | x => x end).
Proof.
  intros A B C. apply runs_seq_cons. exists (Ok s1 p1). split; [exact A|]. exists (Ok s2 pw). split; [exact B|].
  exists r. split; [exact C|]. destruct r; reflexivity.
Qed.

Lemma r_talt_fail c e es s t r : R c (TEval e) s (Fail t) -> R c (TAlt es) (set_trk s t) r ->
  R c (TAlt (e :: es)) s r.
Proof. intros A B. apply runs_alt_cons. exists (Fail t). split; [exact A|exact B]. Qed.
Lemma r_talt_other c e es s r : R c (TEval e) s r -> (forall t, r <> Fail t) -> R c (TAlt (e :: es)) s r.
Proof.
  intros A N. apply runs_alt_cons. exists r. split; [exact A|]. destruct r; try reflexivity. destruct (N t eq_refl).
Qed.

Lemma skips_id c s : c_atom c <> NonAtomic -> skips c s (Ok s []).
Proof. intros H. exists 0. rewrite atomic_no_trivia by exact H. split; [reflexivity|discriminate]. Qed.
Lemma skips_none c s : skip_expr g = None -> skips c s (Ok s []).
Proof.
  intros H. exists 0. unfold skip_with. rewrite H. split; [destruct (c_atom c); reflexivity|discriminate].
Qed.
Lemma skips_some c s e r : c_atom c = NonAtomic -> skip_expr g = Some e ->
  R (skip_ctx c) (TEval e) s r -> skips c s r.
Proof.
  intros A E [f [H D]]. exists f. unfold skip_with. rewrite A, E. split; assumption.
Qed.
Lemma skips_hide c s s2 pw : skips c s (Ok s2 pw) -> hide c pw = pw.
Proof.
  intros [f [H _]]. unfold hide. destruct (c_atom c) eqn:A; try reflexivity.
  rewrite atomic_no_trivia in H by congruence. inversion H. reflexivity.
Qed.

(* Repeat. The first attempt of `e*` is not preceded by trivia, the later ones (TStar) are:
   `first` tells which, and the rules cover both. *)
Definition star_task (first : bool) (e : expr) : task := if first then TEval (EStar e) else TStar e.
Definition skips1 (first : bool) (c : ctx) (s : st) (r : res) : Prop :=
  if first then r = Ok s [] else skips c s r.

Lemma skips1_hide first c s s2 pw : skips1 first c s (Ok s2 pw) -> hide c pw = pw.
Proof. destruct first; [intros [= _ ->]; apply hide_nil|apply skips_hide]. Qed.

Lemma r_star_ok first c e s s2 pw s3 p3 r :
  skips1 first c s (Ok s2 pw) -> R c (TEval e) s2 (Ok s3 p3) -> R c (TStar e) s3 r ->
  R c (star_task first e) s (match r with Ok s4 p4 => Ok s4 (pw ++ p3 ++ p4) | x => x end).
Proof.
  intros B A C. destruct first; cbn [skips1 star_task] in *.
  - injection B as -> ->. apply evals_star. exists (Ok s3 p3). split; [exact A|].
    exists r. split; [exact C|]. destruct r; reflexivity.
  - apply runs_star. exists (Ok s2 pw). split; [exact B|]. exists (Ok s3 p3). split; [exact A|].
    exists r. split; [exact C|]. destruct r; reflexivity.
Qed.

Lemma r_star_end first c e s s2 pw r2 :
  skips1 first c s (Ok s2 pw) -> R c (TEval e) s2 r2 -> notok r2 ->
  R c (star_task first e) s (match r2 with Fail t => Ok (set_trk s t) [] | x => x end).
Proof.
  intros B A N. destruct first; cbn [skips1 star_task] in *.
  - injection B as -> ->. apply evals_star. exists r2. split; [exact A|].
    destruct r2; try contradiction; reflexivity.
  - apply runs_star. exists (Ok s2 pw). split; [exact B|]. exists r2. split; [exact A|].
    destruct r2; try contradiction; reflexivity.
Qed.

Lemma r_tstar_skipbad c e s r : skips c s r -> notok r -> R c (TStar e) s r.
Proof.
  intros B N. apply runs_star. exists r. split; [exact B|]. destruct r; try reflexivity; contradiction.
Qed.

Lemma run_star_same f c e s : c_atom c <> NonAtomic ->
  run g f c (TEval (EStar e)) s = run g f c (TStar e) s.
Proof.
  intros NA. destruct f as [|f]; [reflexivity|]. cbn [run]. rewrite atomic_no_trivia by exact NA.
  destruct (run g f c (TEval e) s); reflexivity.
Qed.

Lemma r_star_same c e s r : c_atom c <> NonAtomic ->
  (R c (TEval (EStar e)) s r <-> R c (TStar e) s r).
Proof.
  intros NA. split; intros [f [H D]]; exists f.
  - rewrite <- run_star_same by exact NA. split; assumption.
  - rewrite run_star_same by exact NA. split; assumption.
Qed.

Lemma r_seq2_ok c a b s s1 p1 r2 : c_atom c <> NonAtomic ->
  R c (TEval a) s (Ok s1 p1) -> R c (TEval b) s1 r2 ->
  R c (TEval (ESeq [a; b])) s (match r2 with Ok s3 p3 => Ok s3 (p1 ++ p3) | x => x end).
Proof.
  intros NA A B. apply r_seq.
  assert (T := r_tseq_ok c a b [] s s1 p1 s1 [] r2 A (skips_id c s1 NA) (proj2 (runs_seq_one g c b s1 r2) B)).
  destruct r2; exact T.
Qed.

Lemma r_seq2_bad c a b s r : R c (TEval a) s r -> notok r -> R c (TEval (ESeq [a; b])) s r.
Proof. intros A N. apply r_seq. apply r_tseq_bad; assumption. Qed.

Lemma seq2_at f c a b s : c_atom c <> NonAtomic -> run g f c (TEval (ESeq [a; b])) s <> Fuel ->
  run g f c (TEval (ESeq [a; b])) s =
  match run g f c (TEval a) s with
  | Ok s1 p1 => match run g f c (TEval b) s1 with Ok s3 p3 => Ok s3 (p1 ++ p3) | x => x end
  | x => x
  end.
Proof.
  intros NA D. remember (run g f c (TEval (ESeq [a; b])) s) as r eqn:H. symmetry in H.
  destruct f as [|f]; [cbn in H; congruence|]. cbn [run] in H.
  destruct f as [|f]; [cbn in H; congruence|]. cbn [run] in H.
  destruct (run g f c (TEval a) s) as [s1 p1|t| |] eqn:E1; [| | |congruence];
    rewrite (run_mono g f (S (S f)) c _ _ _ E1 ltac:(discriminate) ltac:(lia)); [|symmetry; exact H..].
  rewrite atomic_no_trivia in H by exact NA.
  destruct f as [|f]; [discriminate E1|]. cbn [run] in H.
  assert (D2 : run g f c (TEval b) s1 <> Fuel) by (intros EQ; rewrite EQ in H; congruence).
  rewrite (run_mono g f (S (S (S f))) c _ _ _ eq_refl D2 ltac:(lia)).
  destruct (run g f c (TEval b) s1); symmetry; exact H.
Qed.

Lemma seq2_inv c a b s r : c_atom c <> NonAtomic -> R c (TEval (ESeq [a; b])) s r ->
  (exists s1 p1 r2, R c (TEval a) s (Ok s1 p1) /\ R c (TEval b) s1 r2 /\
      r = match r2 with Ok s3 p3 => Ok s3 (p1 ++ p3) | x => x end)
  \/ (R c (TEval a) s r /\ notok r).
Proof.
  intros NA [f [H D]]. assert (E := seq2_at f c a b s NA). rewrite H in E. specialize (E D).
  destruct (run g f c (TEval a) s) as [s1 p1|t| |] eqn:E1; [|right; rewrite E..|congruence].
  - left. exists s1, p1, (run g f c (TEval b) s1). split; [exists f; split; [exact E1|discriminate]|].
    split; [|destruct (run g f c (TEval b) s1); exact E].
    exists f. split; [reflexivity|]. intros E2. rewrite E2 in E. congruence.
  - split; [exists f; split; [exact E1|discriminate]|exact I].
  - split; [exists f; split; [exact E1|discriminate]|exact I].
Qed.

(* a ~ (b ~ a)* after a leading a ~ b is a ~ (b ~ a)* again: how the loop of parse_trivia,
   `while True: WHITESPACE*; if not COMMENT: break`, is WHITESPACE* ~ (COMMENT ~ WHITESPACE* )* *)
Lemma r_interleave c a b s s1 p1 s2 p2 r : c_atom c <> NonAtomic ->
  R c (TEval a) s (Ok s1 p1) -> R c (TEval b) s1 (Ok s2 p2) ->
  R c (TEval (ESeq [a; EStar (ESeq [b; a])])) s2 r -> (forall t, r <> Fail t) ->
  R c (TEval (ESeq [a; EStar (ESeq [b; a])])) s (match r with Ok s3 p3 => Ok s3 (p1 ++ p2 ++ p3) | x => x end).
Proof.
  intros NA A B L NF.
  destruct (seq2_inv c a _ _ _ NA L) as [(s3 & q & r2 & A2 & S2 & ->)|[A2 N]].
  - (* one more round b ~ a from s1, then the remaining rounds *)
    assert (X := r_seq2_ok c b a _ _ _ _ NA B A2). cbn iota in X.
    apply (r_star_same c _ s3 r2 NA) in S2.
    assert (T := r_star_ok true c _ _ _ _ _ _ _ eq_refl X S2). cbn [star_task app] in T.
    assert (Fin := r_seq2_ok c a _ _ _ _ _ NA A T).
    destruct r2; cbn iota in *; [rewrite <- app_assoc in Fin|..]; exact Fin.
  - (* the second a stops with an error *)
    destruct r as [? ?|t| |]; try contradiction; [destruct (NF t eq_refl)|].
    assert (T := r_star_end true c _ _ _ _ _ eq_refl (r_seq2_ok c b a _ _ _ _ NA B A2) I).
    exact (r_seq2_ok c a _ _ _ _ _ NA A T).
Qed.

(* three kinds of expression: leaves (`SpecSyn.terminal`); those that run as a sequence task
   (the sequence and the bounded repetitions, by their unrolled sequences); the rest *)

Definition unrolled (e : expr) : option (list expr) :=
  match e with
  | ESeq es => Some es
  | EPlus e1 => Some [e1; EStar e1]
  | ERepN e1 n => Some (repeat e1 n)
  | ERepMin e1 n => Some (repeat e1 n ++ [EStar e1])
  | ERepMax e1 n => Some (repeat (EOpt e1) n)
  | ERepMinMax e1 m n => Some (repeat e1 m ++ repeat (EOpt e1) (n - m))
  | _ => None
  end.

Lemma run_unrolled e es f c s : unrolled e = Some es ->
  run g (S f) c (TEval e) s = run g f c (TSeq es) s.
Proof. destruct e; intros [= <-]; reflexivity. Qed.

Lemma irun_unrolled e es f s : unrolled e = Some es ->
  irun g (S f) (IEval e) s = irun g f (ISeq es) s.
Proof. destruct e; intros [= <-]; reflexivity. Qed.

(* a leaf looks at the position, the remaining text and the user stack only *)
Lemma leaf_two e f a b : terminal e = true ->
  i_pos a = i_pos b -> i_rest a = i_rest b -> i_user a = i_user b ->
  (irun g (S f) (IEval e) a = fail_here a /\ irun g (S f) (IEval e) b = fail_here b) \/
  exists m p r u, irun g (S f) (IEval e) a = IOk m (upd_user (upd_pos a p r) u) [] /\
                  irun g (S f) (IEval e) b = IOk m (upd_user (upd_pos b p r) u) [].
Proof.
  intros L Hp Hr Hu. destruct a, b. cbn in Hp, Hr, Hu. subst.
  destruct e; try discriminate L; cbn [irun i_pos i_rest i_user];
    repeat match goal with |- context [match ?x with _ => _ end] => destruct x end;
    first [left; split; reflexivity | right; eexists _, _, _, _; unfold adv_i, upd_user, upd_pos; cbn; split; reflexivity].
Qed.

Definition pairless (r : res) : Prop := match r with Ok _ ps => ps = [] | _ => True end.

Lemma leaf_no_pairs f c e s : terminal e = true -> pairless (run g (S f) c (TEval e) s).
Proof.
  intros L. assert (R := run_terminal g e L f c s).
  destruct (run g (S f) c (TEval e) s); [apply R|exact I..].
Qed.

(* expressions that cannot produce pairs at a positive atomic depth: every rule they mention,
   followed k levels deep (`pfr k`), is silent and does not zero the depth.  Down to `no_pairs`
   this serves only the third disjunct of `silent_ok`, through the last case of `silent_hide`. *)

Fixpoint pfe (rec : N -> bool) (e : expr) : bool :=
  match e with
  | ERef n _ => rec n
  | ESeq es | EAlt es =>
      (fix all (l : list expr) : bool := match l with [] => true | x :: l' => pfe rec x && all l' end) es
  | EOpt e1 | EStar e1 | EPlus e1 | ERepN e1 _ | ERepMin e1 _ | ERepMax e1 _ | ERepMinMax e1 _ _
  | EAnd e1 | ENot e1 | EGrp e1 _ | EPush e1 => pfe rec e1
  | _ => true
  end.

Definition nonzero (r : rule) : bool := match depth_mode r with DZero => false | _ => true end.

Fixpoint pfr (k : nat) (n : N) : bool :=
  match k with
  | O => false
  | S k' =>
      match lookup g n with
      | Some r => r_silent r && nonzero r && pfe (pfr k') (r_body r)
      | None => true
      end
  end.

Lemma pfe_list rec es :
  (fix all (l : list expr) : bool := match l with [] => true | x :: l' => pfe rec x && all l' end) es
  = forallb (pfe rec) es.
Proof. induction es as [|e es IH]; [reflexivity|]. cbn [forallb]. rewrite IH. reflexivity. Qed.

Lemma pfe_unrolled rec e es : unrolled e = Some es -> pfe rec e = true -> forallb (pfe rec) es = true.
Proof.
  destruct e; intros [= <-] P; cbn [pfe] in P; [rewrite <- pfe_list; exact P|..];
    rewrite ?forallb_app, ?forallb_repeat by exact P; cbn [forallb pfe]; rewrite ?P; reflexivity.
Qed.

Definition pft (k : nat) (t : task) : bool :=
  match t with
  | TEval e | TStar e => pfe (pfr k) e
  | TSeq es | TAlt es => forallb (pfe (pfr k)) es
  end.

Lemma body_atom_nonzero c r : nonzero r = true -> (depth_mode r = DSame -> c_atom c <> NonAtomic) ->
  body_atom c r <> NonAtomic.
Proof.
  unfold nonzero, depth_mode, body_atom.
  destruct (r_kind r), (is_trivia_name (r_name r)); intros Z NA; try discriminate. exact (NA eq_refl).
Qed.

(* such a task yields no pairs in an atomic or compound context.  No frame is needed: on the
   side of the reference the atomic depth is the context, passed down and never restored. *)
Lemma no_pairs : forall f k c t s,
  pft k t = true -> c_atom c <> NonAtomic -> pairless (run g f c t s).
Proof.
  induction f as [|f IH]; intros k c t s P NA; [exact I|].
  assert (St : forall e, pfe (pfr k) e = true -> pairless (run g (S f) c (TStar e) s)).
  { intros e Pe. cbn [run]. rewrite atomic_no_trivia by exact NA.
    assert (A := IH k c (TEval e) s Pe NA).
    destruct (run g f c (TEval e) s) as [s1 p1| | |] in A |- *; [|reflexivity|exact I..].
    assert (B := IH k c (TStar e) s1 Pe NA).
    destruct (run g f c (TStar e) s1) in B |- *; [|exact I..].
    cbn [pairless] in *. rewrite A, B. reflexivity. }
  destruct t as [e|es|es|e]; cbn [pft] in P.
  - destruct (terminal e) eqn:Lf; [exact (leaf_no_pairs _ _ _ _ Lf)|].
    destruct (unrolled e) as [es|] eqn:U.
    { rewrite (run_unrolled _ _ _ _ _ U). exact (IH k c (TSeq es) s (pfe_unrolled _ _ _ U P) NA). }
    destruct e; try discriminate Lf; try discriminate U; cbn [pfe] in P;
      [|cbn [run]|cbn [run]|rewrite run_star_same by exact NA; exact (St e P)|cbn [run]..].
    + (* ERef *)
      destruct k as [|k]; [discriminate P|]. cbn [pfr run] in *.
      destruct (lookup g n) as [r|]; [|exact I].
      apply andb_prop in P. destruct P as [P P3]. apply andb_prop in P. destruct P as [P1 P2].
      assert (A := IH k (rule_ctx c r) (TEval (r_body r)) (push_tag tag s) P3
                     (body_atom_nonzero c r P2 (fun _ => NA))).
      destruct (run g f (rule_ctx c r) (TEval (r_body r)) (push_tag tag s)) as [s1 kids| | |] in A |- *;
        try exact I.
      cbn [pairless] in A. subst kids. unfold finish_rule. rewrite P1. reflexivity.
    + (* EAlt *) apply (IH k c (TAlt es) s); [|exact NA]. cbn [pft]. rewrite <- pfe_list. exact P.
    + (* EOpt *)
      assert (A := IH k c (TEval e) s P NA).
      destruct (run g f c (TEval e) s) in A |- *; first [exact A|reflexivity|exact I].
    + (* EAnd *) destruct (run g f c (TEval e) s); first [reflexivity|exact I].
    + (* ENot *) destruct (run g f (neg_ctx c) (TEval e) s); first [reflexivity|exact I].
    + (* EGrp *)
      assert (A := IH k c (TEval e) (push_tag tag s) P NA).
      destruct (run g f c (TEval e) (push_tag tag s)) in A |- *; first [exact A|exact I].
    + (* EPush *)
      assert (A := IH k c (TEval e) s P NA).
      destruct (run g f c (TEval e) s) in A |- *; first [exact A|exact I].
  - (* TSeq *)
    cbn [run]. destruct es as [|e1 es']; [reflexivity|].
    cbn [forallb] in P. apply andb_prop in P. destruct P as [P1 P2].
    assert (A := IH k c (TEval e1) s P1 NA).
    destruct (run g f c (TEval e1) s) as [s1 p1| | |] in A |- *; try exact I.
    destruct es' as [|e2 es'']; [exact A|].
    rewrite atomic_no_trivia by exact NA.
    assert (B := IH k c (TSeq (e2 :: es'')) s1 P2 NA).
    destruct (run g f c (TSeq (e2 :: es'')) s1) in B |- *; try exact I.
    cbn [pairless] in *. rewrite A, B. reflexivity.
  - (* TAlt *)
    cbn [run]. destruct es as [|e1 es']; [exact I|].
    cbn [forallb] in P. apply andb_prop in P. destruct P as [P1 P2].
    assert (A := IH k c (TEval e1) s P1 NA).
    destruct (run g f c (TEval e1) s) as [s1 p1|t| |] in A |- *; [exact A| |exact I..].
    exact (IH k c (TAlt es') _ P2 NA).
  - (* TStar *) exact (St e P).
Qed.

(* the parts of `Spec.skip_expr` = WS* ~ (CM ~ WS* )*: wR = WS, cR = CM, wS = WS*, xE = CM ~ WS*;
   loopE is the whole (`loopE_eq`) *)
Definition wR : expr := ERef WS_ID None.
Definition cR : expr := ERef CM_ID None.
Definition wS : expr := EStar wR.
Definition xE : expr := ESeq [cR; wS].
Definition loopE : expr := match skip_expr g with Some e => e | None => ESeq [] end.

(* a result of the interpreter read as a result of the reference: resE for expressions and
   rules, resT for parse_trivia, resL for its two loops.  What cannot happen (a crash; `false`
   from a loop) is sent to Fuel, which `runs` never holds of, so `post` of it is absurd
   (`post_crash`).  IFuel goes the same way, but it can happen: `sound` treats it apart. *)
Definition resE (c : ctx) (ir : ires) : res :=
  match ir with
  | IOk true s' ps => Ok (abs_st s') (hide c ps)
  | IOk false s' _ => Fail (i_trk s')
  | IUndef => Err
  | _ => Fuel
  end.
Definition resT (ir : ires) : res :=
  match ir with IOk _ s' ps => Ok (abs_st s') ps | IUndef => Err | _ => Fuel end.
Definition resL (ir : ires) : res :=
  match ir with IOk true s' ps => Ok (abs_st s') ps | IUndef => Err | _ => Fuel end.

Definition fr (s : ist) (ir : ires) : Prop :=
  match ir with IOk _ s' _ => frame s s' | _ => True end.

Definition pre (c : ctx) (t : itask) (s : ist) : Prop :=
  match t with
  | IEval _ | ISeq _ | IAlt _ | IStar _ _ | ITrivia => cx c s
  | IWsLoop | ITrivLoop => cxb c s /\ c_atom c = Compound
  | ITrivRule n => cxb c s /\ c_atom c = Compound /\ is_trivia_name n = true
  | IRule r => cxb c s /\ lookup g (r_name r) = Some r /\ (depth_mode r = DSame -> cxa c s)
  end.

(* Rule.parse may be called on a rule that is defined, from a state that agrees with the context
   on the atomic depth; for WHITESPACE and COMMENT, which set the depth themselves, from any depth *)
Lemma pre_rule c n r s : lookup g n = Some r -> cxb c s -> is_trivia_name n = true \/ cxa c s ->
  pre c (IRule r) s.
Proof.
  intros L B H. assert (NM := lookup_name _ _ _ L). split; [exact B|]. split; [rewrite NM; exact L|].
  intros DM. destruct H as [TN|A]; [exfalso|exact A].
  unfold depth_mode in DM. rewrite NM, TN in DM. destruct (r_kind r); discriminate.
Qed.

Lemma pre_trivloop c s : cx c s -> pre (skip_ctx c) ITrivLoop (upd_sup s true).
Proof. intros P. split; [|reflexivity]. split; [exact (proj1 (proj1 P))|reflexivity]. Qed.

Definition post (c : ctx) (t : itask) (s : ist) (ir : ires) : Prop :=
  match t with
  | IEval e => R c (TEval e) (abs_st s) (resE c ir)
  | ISeq es => R c (TSeq es) (abs_st s) (resE c ir)
  | IAlt es => R c (TAlt es) (abs_st s) (resE c ir)
  | IStar e true => R c (TEval (EStar e)) (abs_st s) (resE c ir)
  | IStar e false => R c (TStar e) (abs_st s) (resE c ir)
  | ITrivia => skips c (abs_st s) (resT ir)
  | IWsLoop => R c (TStar wR) (abs_st s) (resL ir)
  | ITrivLoop => R c (TEval loopE) (abs_st s) (resL ir)
  | ITrivRule n => R c (TEval (ERef n None)) (abs_st s) (resE c ir) /\
                   (forall s' ps, ir = IOk false s' ps -> abs_st s' = set_trk (abs_st s) (i_trk s'))
  | IRule r => R c (TEval (ERef (r_name r) None)) (abs_st s) (resE c ir)
  end.

(* silent rules: rules that filter their children (`hides`: @ rules, and WHITESPACE / COMMENT
   unless declared $), plain rules (outside the trivia names their body inherits the caller's
   atomicity and the children are passed up as they are), or rules that raise the atomic depth and
   whose body cannot produce pairs at all. What is excluded: a silent $ rule whose body can
   produce pairs, and any silent ! rule that is not WHITESPACE / COMMENT (it zeroes the depth). *)
Definition silent_ok (r : rule) : Prop :=
  hides r = true \/ r_kind r = KNormal \/
  (depth_mode r = DInc /\ exists k, pfe (pfr k) (r_body r) = true).

Hypothesis Hsil : forall n r, lookup g n = Some r -> r_silent r = true -> silent_ok r.

Lemma post_star c e first s ir :
  post c (IStar e first) s ir = R c (star_task first e) (abs_st s) (resE c ir).
Proof. destruct first; reflexivity. Qed.

Lemma post_crash c t s ir : ir = ICrash \/ ir = IFuel -> ~ post c t s ir.
Proof.
  intros [->| ->]; destruct t as [e|es|es|e [|]| | | |n|r]; cbn [post resE resT resL]; try apply nofuel.
  - intros [f [_ D]]. congruence.
  - intros [X _]. exact (nofuel _ _ _ X).
  - intros [f [_ D]]. congruence.
  - intros [X _]. exact (nofuel _ _ _ X).
Qed.

Lemma resL_nofail ir t : resL ir <> Fail t.
Proof. destruct ir as [[|] s' ps| | |]; discriminate. Qed.

Lemma skip_expr_none : negb (has_rule g WS_ID) && negb (has_rule g CM_ID) = true -> skip_expr g = None.
Proof.
  unfold skip_expr, has_ws, has_cm, has_rule.
  destruct (lookup g WS_ID), (lookup g CM_ID); cbn; intros H; try discriminate; reflexivity.
Qed.
Lemma skip_expr_some : negb (has_rule g WS_ID) && negb (has_rule g CM_ID) = false ->
  skip_expr g = Some loopE.
Proof.
  unfold loopE, skip_expr, has_ws, has_cm, has_rule.
  destruct (lookup g WS_ID), (lookup g CM_ID); cbn; intros H; try discriminate; reflexivity.
Qed.
Lemma loopE_eq :
  loopE = match has_rule g WS_ID, has_rule g CM_ID with
          | true, true => ESeq [wS; EStar xE]
          | true, false => wS
          | false, true => EStar cR
          | false, false => ESeq []
          end.
Proof.
  unfold loopE, skip_expr, has_ws, has_cm, has_rule.
  destruct (lookup g WS_ID), (lookup g CM_ID); reflexivity.
Qed.

Lemma ifail_name c s e : cxb c s -> cxr c s ->
  ifail s true (match e with ERef n _ => Some n | _ => None end) =
  Some (upd_trk s (record c true (match e with ERef n _ => n | _ => c_rule c end) (abs_st s))).
Proof.
  intros A B. destruct e; first [apply ifail_some; exact A|rewrite (ifail_none c s true B); apply ifail_some; exact A].
Qed.

Lemma pair_match c r start e kids tg : lookup g (r_name r) = Some r -> r_silent r = false ->
  hide c [Pair (r_name r) start e (if hides r then vis g kids else kids) tg]
  = if visible c r then [Pair (r_name r) start e (hide (rule_ctx c r) kids) tg]
    else hide (rule_ctx c r) kids.
Proof.
  intros L S. assert (K := keeps_lookup _ _ L).
  unfold visible, hide, rule_ctx, body_atom, hides. rewrite S. cbn [c_atom negb andb].
  destruct (c_atom c) eqn:CA; destruct (r_kind r) eqn:RK; destruct (is_trivia_name (r_name r));
    try rewrite vis_single, K; try rewrite vis_idem; reflexivity.
Qed.

(* Rule.parse: entering and leaving the body *)

Definition enter (r : rule) (s : ist) : ist :=
  let s1 := upd_rules s (r_name r :: i_rules s) in
  match depth_mode r with
  | DInc => upd_depth s1 (S (i_depth s1)) (i_depth s1 :: i_dcps s1)
  | DZero => upd_depth s1 0 (i_depth s1 :: i_dcps s1)
  | DSame => s1
  end.
Definition leave (r : rule) (s3 : ist) : ist :=
  match depth_mode r with
  | DSame => s3
  | _ => upd_depth s3 (match i_dcps s3 with d :: _ => d | [] => 0 end) (tl (i_dcps s3))
  end.

Lemma irun_rule f r s :
  irun g (S f) (IRule r) s =
  match irun g f (IEval (r_body r)) (enter r s) with
  | IOk m s3 kids =>
      match i_rules (leave r s3) with
      | [] => ICrash
      | _ :: rl =>
          let s5 := upd_rules (leave r s3) rl in
          if negb m then IOk false s5 []
          else if r_silent r then IOk true s5 (if hides r then vis g kids else kids)
          else IOk true (upd_tags s5 (tl (i_tags s5)))
                 [Pair (r_name r) (i_pos s) (i_pos s5) (if hides r then vis g kids else kids)
                    (match i_tags s5 with t0 :: _ => Some t0 | [] => None end)]
      end
  | x => x
  end.
Proof. reflexivity. Qed.

Lemma abs_enter r s : abs_st (enter r s) = abs_st s.
Proof. unfold enter. destruct (depth_mode r); reflexivity. Qed.

Lemma enter_cx c r s : pre c (IRule r) s -> cx (rule_ctx c r) (enter r s).
Proof.
  intros [[A B] [L Hd]]. unfold cx, cxb, cxa, cxr, enter, rule_ctx, body_atom.
  unfold depth_mode in *. cbn [c_neg c_sup c_atom c_rule].
  destruct (r_kind r); destruct (is_trivia_name (r_name r)); cbn;
    (split; [split; assumption|]); (split; [|reflexivity]);
    try (split; intros; discriminate); try (split; reflexivity).
  apply Hd. reflexivity.
Qed.

Lemma leave_enter r s s3 : frame (enter r s) s3 ->
  i_rules (leave r s3) = r_name r :: i_rules s /\
  frame s (upd_rules (leave r s3) (i_rules s)) /\
  abs_st (upd_rules (leave r s3) (i_rules s)) = abs_st s3.
Proof.
  unfold enter, leave. destruct (depth_mode r); intros [A1 [A2 [A3 [A4 [A5 A6]]]]]; cbn in *;
    try rewrite A2; cbn; (split; [exact A3|]); (split; [|reflexivity]);
    unfold frame; cbn; try rewrite A2; cbn; repeat split; assumption.
Qed.

(* the children of a silent rule are seen alike from the caller's and from the body's context *)
Lemma silent_hide c r s0 s1 kids : lookup g (r_name r) = Some r -> r_silent r = true ->
  R (rule_ctx c r) (TEval (r_body r)) s0 (Ok s1 (hide (rule_ctx c r) kids)) ->
  hide (rule_ctx c r) kids = hide c (if hides r then vis g kids else kids).
Proof.
  intros L S [f [X _]]. destruct (Hsil _ _ L S) as [Hh|[K|[DM [k PF]]]].
  - unfold hides in *. unfold hide, rule_ctx, body_atom. cbn [c_atom].
    destruct (r_kind r); destruct (is_trivia_name (r_name r)); try discriminate Hh;
      destruct (c_atom c); try rewrite vis_idem; reflexivity.
  - unfold hides, hide, rule_ctx, body_atom. cbn [c_atom]. rewrite K.
    destruct (is_trivia_name (r_name r)); destruct (c_atom c); try rewrite vis_idem; reflexivity.
  - (* the body shows no pairs; where it is not atomic it shows all there are *)
    assert (NA : c_atom (rule_ctx c r) <> NonAtomic).
    { apply body_atom_nonzero; [unfold nonzero|]; rewrite DM; [reflexivity|discriminate]. }
    assert (Q := no_pairs f k _ (TEval (r_body r)) s0 PF NA). rewrite X in Q. cbn [pairless] in Q.
    rewrite Q. revert Q.
    unfold depth_mode, hides, hide, rule_ctx, body_atom in *. cbn [c_atom].
    destruct (r_kind r); destruct (is_trivia_name (r_name r)); try discriminate DM;
      intros ->; destruct (c_atom c); reflexivity.
Qed.

(* at any fuel the reference returns its result or runs out *)
Lemma run_or_fuel k c t s r : R c t s r -> run g k c t s = r \/ run g k c t s = Fuel.
Proof.
  intros X. assert (D := fun N => runs_det g c t s _ r (ex_intro _ k (conj eq_refl N)) X).
  destruct (run g k c t s); [left; apply D; discriminate..|right; reflexivity].
Qed.

Lemma skips_or_fuel k c s r : skips c s r ->
  skip_with g (fun c' e' => run g k c' (TEval e')) c s = r \/
  skip_with g (fun c' e' => run g k c' (TEval e')) c s = Fuel.
Proof.
  intros X. assert (D := fun N => skips_det g c s _ r (ex_intro _ k (conj eq_refl N)) X).
  destruct (skip_with g (fun c' e' => run g k c' (TEval e')) c s); [left; apply D; discriminate..|right; reflexivity].
Qed.

Lemma run_is k c t s r : run g k c t s <> Fuel -> R c t s r -> run g k c t s = r.
Proof. intros D X. destruct (run_or_fuel k c t s r X) as [E|E]; [exact E|destruct (D E)]. Qed.

(* a run whose result is passed on by ST is not out of fuel when ST is not *)
Ltac sub_nofuel ST := let EQ := fresh "EQ" in intros EQ; apply ST; rewrite EQ; reflexivity.

(* what the reference must finish for the interpreter's trivia loop to finish.  It follows from
   `run f (TEval loopE) <> Fuel` (`loopE_inv`) but is not that: after a comment the interpreter
   starts its whole loop again, while the reference goes on inside `(COMMENT ~ WHITESPACE* )*`,
   and this is the shape that survives the re-association (`r_interleave` is the same idea for
   the results).  Without trivia rules the loop is never called (`step_trivia`); False there
   lets `tl_term0` hold. *)
Definition tl_term (f : nat) (c : ctx) (s : st) : Prop :=
  match has_rule g WS_ID, has_rule g CM_ID with
  | true, true => run g f c (TStar wR) s <> Fuel /\
                  forall s1 p1, run g f c (TStar wR) s = Ok s1 p1 -> run g f c (TStar xE) s1 <> Fuel
  | true, false => run g f c (TStar wR) s <> Fuel
  | false, true => run g f c (TStar cR) s <> Fuel
  | false, false => False
  end.

Lemma tl_term0 c s : tl_term 0 c s -> False.
Proof.
  unfold tl_term. destruct (has_rule g WS_ID), (has_rule g CM_ID); cbn [run]; try congruence.
  intros [A _]. congruence.
Qed.

Lemma loopE_inv f c s : c_atom c <> NonAtomic ->
  negb (has_rule g WS_ID) && negb (has_rule g CM_ID) = false ->
  run g f c (TEval loopE) s <> Fuel -> tl_term f c s.
Proof.
  intros NA En H. rewrite loopE_eq in H. unfold tl_term.
  destruct (has_rule g WS_ID), (has_rule g CM_ID); try discriminate En.
  - rewrite (seq2_at f c wS (EStar xE) s NA H) in H.
    unfold wS in H. rewrite run_star_same in H by exact NA.
    split; [sub_nofuel H|].
    intros s1 p1 E. rewrite E in H. rewrite <- run_star_same by exact NA. sub_nofuel H.
  - unfold wS in H. rewrite run_star_same in H by exact NA. exact H.
  - rewrite run_star_same in H by exact NA. exact H.
Qed.

(* the counterpart of a call in the reference finishes within fuel f *)
Definition sterm (f : nat) (c : ctx) (t : itask) (s : ist) : Prop :=
  match t with
  | IEval e => run g f c (TEval e) (abs_st s) <> Fuel
  | ISeq es => run g f c (TSeq es) (abs_st s) <> Fuel
  | IAlt es => run g f c (TAlt es) (abs_st s) <> Fuel
  | IStar e true => run g f c (TEval (EStar e)) (abs_st s) <> Fuel
  | IStar e false => run g f c (TStar e) (abs_st s) <> Fuel
  | ITrivia => skip_with g (fun c' e' => run g f c' (TEval e')) c (abs_st s) <> Fuel
  | IWsLoop => run g f c (TStar wR) (abs_st s) <> Fuel
  | ITrivLoop => tl_term f c (abs_st s)
  | ITrivRule n => run g f c (TEval (ERef n None)) (abs_st s) <> Fuel
  | IRule r => run g f c (TEval (ERef (r_name r) None)) (abs_st s) <> Fuel
  end.

Lemma ref_term k c r tag s : lookup g (r_name r) = Some r ->
  run g (S k) c (TEval (ERef (r_name r) tag)) s <> Fuel <->
  run g k (rule_ctx c r) (TEval (r_body r)) (push_tag tag s) <> Fuel.
Proof.
  intros L. cbn [run]. rewrite L.
  destruct (run g k (rule_ctx c r) (TEval (r_body r)) (push_tag tag s)) as [s1 kids|t| |];
    [destruct (finish_rule c r (s_pos s) s1 kids)|..]; split; intros H E; try discriminate E; exact (H E).
Qed.

(* the task itself plus the calls it may make, one inside the other, that the reference answers
   by the same step: Identifier -> Rule.parse, e* -> the first round of Repeat, _parse_trivia_rule
   -> Rule.parse, parse_trivia -> its loop -> the whitespace loop.  parse_trivia is also the one
   task whose counterpart (`skip_with`) can finish at fuel 0, in an atomic context or without
   trivia rules: hence `t <> ITrivia` in `sterm0` and `fuel_below`, and the `+ 2` in `starved`,
   which at F = 0 leaves k = 0 open to the tasks of rank 1 and 2 only. *)
Definition rk (t : itask) : nat :=
  match t with
  | ITrivia => 3
  | IEval _ | ITrivLoop | ITrivRule _ => 2
  | _ => 1
  end.

Lemma rk_range t : 1 <= rk t <= 3.
Proof. destruct t; cbn [rk]; lia. Qed.

Lemma sterm0 c t s : t <> ITrivia -> ~ sterm 0 c t s.
Proof.
  intros N ST. destruct t as [e|es|es|e [|]| | | |n|r]; cbn [sterm] in ST; try (apply ST; reflexivity).
  - destruct N. reflexivity.
  - exact (tl_term0 _ _ ST).
Qed.

(* a call from a state that fits the context keeps the frame and returns what the reference
   returns; if it runs out of fuel F, the reference runs out of every fuel k with 3 k + rk t <= F + 2
   (at most three steps of the interpreter per step of the reference; so fuel 3 k + 1 serves every
   task whose counterpart finishes within k) *)
Definition starved (F : nat) (c : ctx) (t : itask) (s : ist) : Prop :=
  forall k, 3 * k + rk t <= F + 2 -> ~ sterm k c t s.

Definition sound (F : nat) (c : ctx) (t : itask) (s : ist) (ir : ires) : Prop :=
  match ir with
  | IFuel => starved F c t s
  | _ => fr s ir /\ post c t s ir
  end.

Definition sim_at (f : nat) : Prop := forall t c s, pre c t s -> sound f c t s (irun g f t s).

Lemma frame_of s s2 : i_saved s2 = i_saved s /\ i_dcps s2 = i_dcps s /\ i_rules s2 = i_rules s /\
    i_depth s2 = i_depth s /\ i_neg s2 = i_neg s /\ i_sup s2 = i_sup s -> frame s s2.
Proof. intros H. exact H. Qed.

(* both sides run the same test on the same text and stack *)
Lemma sim_leaf f c e s : terminal e = true -> cx c s ->
  exists m s', irun g (S f) (IEval e) s = IOk m s' [] /\ frame s s' /\
               run g 1 c (TEval e) (abs_st s) = resE c (IOk m s' []).
Proof.
  intros L P. destruct e; try discriminate L; cbn [irun run]; rewrite ?(fail_here_eq c s P);
    cbn [abs_st s_rest s_stk s_pos s_trk];
    repeat match goal with |- context [match ?x with _ => _ end] => destruct x end;
    eexists _, _; (split; [reflexivity|]); (split; [repeat split|]); cbn [resE]; rewrite ?hide_nil; reflexivity.
Qed.

Section Step.
Variable f : nat.
Hypothesis IH : sim_at f.

(* `sound` of a call at the smaller fuel, by cases: it does not crash *)
Inductive called (c : ctx) (t : itask) (s : ist) : ires -> Prop :=
| called_ok m s1 ps : frame s s1 -> post c t s (IOk m s1 ps) -> called c t s (IOk m s1 ps)
| called_undef : post c t s IUndef -> called c t s IUndef
| called_fuel : starved f c t s -> called c t s IFuel.

Lemma sub_call c t s : pre c t s -> called c t s (irun g f t s).
Proof.
  intros P. assert (X := IH t c s P). destruct (irun g f t s) as [m s1 ps| | |].
  - destruct X as [F X]. constructor; assumption.
  - destruct (post_crash c t s _ (or_introl eq_refl) (proj2 X)).
  - constructor. exact (proj2 X).
  - constructor. exact X.
Qed.

(* a callee ran out of fuel: if the reference answers it by a smaller step, it may be any task (a
   step of the reference is worth three of the interpreter, and ranks are at most three); if by
   the same step, it must be of smaller rank *)
Lemma fuel_below c t s c1 t1 s1 :
  starved f c1 t1 s1 ->
  t <> ITrivia -> (forall k, sterm (S k) c t s -> sterm k c1 t1 s1) ->
  starved (S f) c t s.
Proof.
  intros Z N D k Lk ST. destruct k as [|k]; [exact (sterm0 c t s N ST)|].
  apply (Z k); [|exact (D k ST)]. assert (A := rk_range t). assert (B := rk_range t1). lia.
Qed.

Lemma fuel_same c t s c1 t1 s1 :
  starved f c1 t1 s1 ->
  rk t1 < rk t -> (forall k, sterm k c t s -> sterm k c1 t1 s1) ->
  starved (S f) c t s.
Proof. intros Z Lr D k Lk ST. apply (Z k); [lia|exact (D k ST)]. Qed.

Definition step_ok (t : itask) : Prop := forall c s, pre c t s -> sound (S f) c t s (irun g (S f) t s).

Lemma sound_of F c t s ir : fr s ir -> post c t s ir -> sound F c t s ir.
Proof.
  intros Fr X. destruct ir; [split; assumption..|]. destruct (post_crash c t s _ (or_intror eq_refl) X).
Qed.

Lemma tail_call c t t' s : pre c t s -> (forall ir, post c t s ir -> post c t' s ir) ->
  (starved f c t s -> starved (S f) c t' s) ->
  sound (S f) c t' s (irun g f t s).
Proof.
  intros P T D. destruct (sub_call c t s P) as [m1 s1 p1 F1 X1|X1|Z].
  - split; [exact F1|exact (T _ X1)].
  - split; [exact I|exact (T _ X1)].
  - exact (D Z).
Qed.

(* an expression that makes one call and maps what it returns, the interpreter by Ki, the
   reference by K: the two maps have to agree on a result that kept the callee's frame *)
Lemma one_call c c1 t1 e s s1 (K : res -> res) (Ki : bool -> ist -> list pair -> ires) :
  pre c1 t1 s1 ->
  (forall ir, post c1 t1 s1 ir -> R c (TEval e) (abs_st s) (K (resE c1 ir))) ->
  K Err = Err ->
  (forall m s2 ps, frame s1 s2 -> fr s (Ki m s2 ps) /\ resE c (Ki m s2 ps) = K (resE c1 (IOk m s2 ps))) ->
  (starved f c1 t1 s1 -> starved (S f) c (IEval e) s) ->
  sound (S f) c (IEval e) s (match irun g f t1 s1 with IOk m s2 ps => Ki m s2 ps | x => x end).
Proof.
  intros P Rule KE Ok D.
  destruct (sub_call c1 t1 s1 P) as [m s2 ps F X|X|Z]; [apply Rule in X..|].
  - destruct (Ok m s2 ps F) as [G E]. apply sound_of; [exact G|]. cbn [post]. rewrite E. exact X.
  - split; [exact I|]. cbn [post resE]. rewrite <- KE. exact X.
  - exact (D Z).
Qed.

(* the callee is an expression that the reference runs one step below: `run` of e at S k is K of
   `run` of e1 at k *)
Lemma one_eval c c1 e e1 s s1 (K : res -> res) (Ki : bool -> ist -> list pair -> ires) :
  cx c1 s1 ->
  (forall k, run g (S k) c (TEval e) (abs_st s) = K (run g k c1 (TEval e1) (abs_st s1))) ->
  (forall r, K r = Fuel <-> r = Fuel) -> K Err = Err ->
  (forall m s2 ps, frame s1 s2 -> fr s (Ki m s2 ps) /\ resE c (Ki m s2 ps) = K (resE c1 (IOk m s2 ps))) ->
  sound (S f) c (IEval e) s (match irun g f (IEval e1) s1 with IOk m s2 ps => Ki m s2 ps | x => x end).
Proof.
  intros P E HK KE Ok.
  apply (one_call c c1 (IEval e1) e s s1 K Ki P
           (fun ir => r_wrap1 _ _ _ _ _ _ K E (fun r D H => D (proj1 (HK r) H)) (resE c1 ir)) KE Ok).
  intros Z. apply (fuel_below _ _ _ _ _ _ Z); [discriminate|]. intros k ST EQ. apply ST.
  rewrite E, EQ. exact (proj2 (HK Fuel) eq_refl).
Qed.

Lemma step_opt e : step_ok (IEval (EOpt e)).
Proof.
  intros c s P. cbn [irun].
  apply (one_eval c c _ e s (icheckpoint s)
           (fun r1 => match r1 with Fail t => Ok (set_trk (abs_st s) t) [] | x => x end) _ P).
  - intros k. cbn [run]. destruct (run g k _ _ _); reflexivity.
  - intros r. destruct r; split; congruence.
  - reflexivity.
  - intros [|] s1 ps F.
    + destruct (commit s s1 F) as (s2 & -> & A2 & G). split; [exact G|]. cbn [resE]. rewrite A2. reflexivity.
    + destruct (rollback s s1 F) as (s2 & -> & A2 & _ & G). split; [exact G|].
      cbn [resE]. rewrite hide_nil, A2. reflexivity.
Qed.

Lemma step_and e : step_ok (IEval (EAnd e)).
Proof.
  intros c s P. cbn [irun].
  apply (one_eval c c _ e s (icheckpoint s)
           (fun r1 => match r1 with Ok s1 _ => Ok (set_trk (abs_st s) (s_trk s1)) [] | x => x end) _ P).
  1:{ intros k. cbn [run]. destruct (run g k _ _ _); reflexivity. }
  1:{ intros r. destruct r; split; congruence. }
  1:{ reflexivity. }
  intros m s1 ps F. destruct (rollback s s1 F) as (s2 & -> & A2 & T2 & G). split; [exact G|].
  destruct m; cbn [resE]; [rewrite hide_nil, A2|rewrite T2]; reflexivity.
Qed.

Lemma step_not e : step_ok (IEval (ENot e)).
Proof.
  intros c s P. cbn [irun].
  assert (P0 := cx_neg c s P).
  apply (one_eval c (neg_ctx c) _ e s (upd_neg (icheckpoint s) (S (i_neg s)))
           (fun r1 => match r1 with
                      | Ok s1 _ => Fail (record (neg_ctx c) true (match e with ERef n _ => n | _ => c_rule c end)
                                           (set_trk (abs_st s) (s_trk s1)))
                      | Fail t => Ok (set_trk (abs_st s) t) []
                      | x => x end) _ P0).
  1:{ intros k. cbn [run]. destruct (run g k _ _ _); reflexivity. }
  1:{ intros r. destruct r; split; congruence. }
  1:{ reflexivity. }
  intros m s1 ps F. destruct (rollback_at s (S (i_neg s)) s1 F) as (s2 & -> & A2 & T2 & G).
  destruct (cx_frame (neg_ctx c) (upd_neg s (S (i_neg s))) s2 G P0) as [B2 [_ R2]].
  destruct m.
  - rewrite (ifail_name (neg_ctx c) s2 e B2 R2). split; [exact (neg_out s _ G)|].
    cbn [resE i_trk upd_neg upd_trk]. rewrite A2. reflexivity.
  - split; [exact (neg_out s _ G)|]. cbn [resE]. rewrite hide_nil.
    change (abs_st (upd_neg s2 (Init.Nat.pred (i_neg s2)))) with (abs_st s2). rewrite A2. reflexivity.
Qed.

Lemma step_grp e tag : step_ok (IEval (EGrp e tag)).
Proof.
  intros c s P. cbn [irun].
  apply (one_eval c c _ e s (match tag with Some tg => upd_tags s (tg :: i_tags s) | None => s end)
           (fun r1 => match r1 with Ok s1 ps => Ok (pop_tag tag s1) ps | x => x end) _).
  - destruct tag; exact P.
  - intros k. cbn [run]. destruct tag; destruct (run g k _ _ _); reflexivity.
  - intros r. destruct r; split; congruence.
  - reflexivity.
  - intros m s1 ps F. destruct tag; (split; [exact F|]); destruct m; reflexivity.
Qed.

Lemma step_push e : step_ok (IEval (EPush e)).
Proof.
  intros c s P. cbn [irun].
  apply (one_eval c c _ e s s
           (fun r1 => match r1 with
                      | Ok s1 ps =>
                          Ok (set_stk s1 (firstn (N.to_nat (s_pos s1 - s_pos (abs_st s))) (s_rest (abs_st s))
                                          :: s_stk s1)) ps
                      | x => x end) _ P).
  - intros k. cbn [run]. destruct (run g k _ _ _); reflexivity.
  - intros r. destruct r; split; congruence.
  - reflexivity.
  - intros m s1 ps F. destruct m; (split; [exact F|reflexivity]).
Qed.

Lemma step_ref n tag : step_ok (IEval (ERef n tag)).
Proof.
  intros c s P. cbn [irun].
  destruct (lookup g n) as [r|] eqn:L; [|split; [exact I|]; apply r_ref_undef; exact L].
  assert (P0 : forall tg, pre c (IRule r) (upd_tags s tg))
    by (intros tg; exact (pre_rule c n r _ L (proj1 P) (or_intror (proj1 (proj2 P))))).
  rewrite <- (lookup_name _ _ _ L).
  destruct tag as [tg|];
    [apply (one_call c c (IRule r) _ s (upd_tags s (tg :: i_tags s))
              (fun r1 => match r1 with Ok s2 ps => Ok (pop_tag (Some tg) s2) ps | x => x end) _ (P0 _)
              (fun ir => r_ref_tag c _ (Some tg) (abs_st s) (resE c ir)) eq_refl)
    |apply (one_call c c (IRule r) _ s s
              (fun r1 => match r1 with Ok s2 ps => Ok (pop_tag None s2) ps | x => x end) _ (P0 (i_tags s))
              (fun ir => r_ref_tag c _ None (abs_st s) (resE c ir)) eq_refl)].
  1,3: intros m s1 ps F; (split; [exact F|]); destruct m; reflexivity.
  (* Rule.parse is answered by the same step of the reference *)
  all: intros Z; apply (fuel_same _ _ _ _ _ _ Z); [cbn [rk]; lia|]; intros k ST.
  all: destruct k as [|k]; [destruct ST; reflexivity|]; assert (L' := L); rewrite <- (lookup_name _ _ _ L) in L'.
  all: apply (ref_term k c r _ _ L') in ST; apply (ref_term k c r None _ L'); exact ST.
Qed.

Lemma step_eval e : step_ok (IEval e).
Proof.
  destruct (terminal e) eqn:Lf.
  { intros c s P. destruct (sim_leaf f c e s Lf P) as (m & s' & -> & F & X). split; [exact F|].
    exists 1. split; [exact X|destruct m; discriminate]. }
  destruct (unrolled e) as [es|] eqn:U.
  { intros c s P. rewrite (irun_unrolled _ _ f s U). apply (tail_call c (ISeq es) _ s P).
    - intros ir. exact (proj2 (runs_step g c _ _ _ _ (fun f' => run_unrolled _ _ f' c _ U))).
    - intros Z. apply (fuel_below _ _ _ _ _ _ Z); [discriminate|]. intros k ST.
      cbn [sterm] in *. rewrite <- (run_unrolled _ _ k c _ U). exact ST. }
  destruct e; try discriminate Lf; try discriminate U.
  - apply step_ref.
  - intros c s P. apply (tail_call c (IAlt es) _ s P); [intros ir; apply r_alt|].
    intros Z. apply (fuel_below _ _ _ _ _ _ Z); [discriminate|]. intros k ST. exact ST.
  - apply step_opt.
  - intros c s P. apply (tail_call c (IStar e true) (IEval (EStar e)) s P (fun _ X => X)).
    intros Z. apply (fuel_same _ _ _ _ _ _ Z); [cbn [rk]; lia|]. intros k ST. exact ST.
  - apply step_and.
  - apply step_not.
  - apply step_grp.
  - apply step_push.
Qed.

Lemma step_seq es : step_ok (ISeq es).
Proof.
  intros c s P. cbn [irun].
  destruct es as [|e1 es'].
  { split; [apply frame_refl|]. cbn [post resE]. rewrite hide_nil. apply runs_seq_nil. reflexivity. }
  destruct (sub_call c (IEval e1) s P) as [m1 s1 p1 F1 X1|X1|Z1].
  2:{ split; [exact I|]. apply r_tseq_bad; [exact X1|exact I]. }
  2:{ apply (fuel_below _ _ _ _ _ _ Z1); [discriminate|]. intros k ST. cbn [sterm run] in ST.
      sub_nofuel ST. }
  destruct m1.
  2:{ split; [exact F1|]. apply r_tseq_bad; [exact X1|exact I]. }
  destruct es' as [|e2 es''].
  { split; [exact F1|]. apply runs_seq_one. exact X1. }
  assert (P1 := cx_frame c s s1 F1 P).
  destruct (sub_call c ITrivia s1 P1) as [m2 s2 pw F2 X2|X2|Z2].
  2:{ split; [exact I|]. eapply r_tseq_skipbad; [exact X1|exact X2|exact I]. }
  2:{ apply (fuel_below _ _ _ _ _ _ Z2); [discriminate|]. intros k ST. cbn [sterm run] in ST.
      destruct (run_or_fuel k _ _ _ _ X1) as [E|E]; rewrite E in ST; [|destruct ST; reflexivity].
      cbn [resE] in ST.
      sub_nofuel ST. }
  destruct (sub_call c (ISeq (e2 :: es'')) s2 (cx_frame c s1 s2 F2 P1)) as [m3 s3 p3 F3 X3|X3|Z3];
    [assert (X := r_tseq_ok c e1 e2 es'' _ _ _ _ _ _ X1 X2 X3)..|].
  - assert (F := frame_trans _ _ _ F1 (frame_trans _ _ _ F2 F3)).
    destruct m3; (split; [exact F|]); cbn [post resE] in *; [|exact X].
    rewrite !hide_app, (skips_hide _ _ _ _ X2). exact X.
  - split; [exact I|exact X].
  - apply (fuel_below _ _ _ _ _ _ Z3); [discriminate|]. intros k ST. cbn [sterm run] in ST.
    destruct (run_or_fuel k _ _ _ _ X1) as [E|E]; rewrite E in ST; [|destruct ST; reflexivity].
    cbn [resE] in ST.
    destruct (skips_or_fuel k _ _ _ X2) as [E2|E2]; rewrite E2 in ST; [|destruct ST; reflexivity].
    cbn [resT] in ST.
    sub_nofuel ST.
Qed.

Lemma step_alt es : step_ok (IAlt es).
Proof.
  intros c s P. cbn [irun].
  destruct es as [|e1 es']; [split; [apply frame_refl|apply runs_alt_nil; reflexivity]|].
  destruct (sub_call c (IEval e1) (icheckpoint s) P) as [m1 s1 p1 F1 X1|X1|Z1].
  2:{ split; [exact I|]. apply r_talt_other; [exact X1|intros t; discriminate]. }
  2:{ apply (fuel_below _ _ _ _ _ _ Z1); [discriminate|]. intros k ST. cbn [sterm run] in ST.
      change (run g k c (TEval e1) (abs_st s) <> Fuel). sub_nofuel ST. }
  destruct m1.
  - destruct (commit s s1 F1) as (s2 & -> & A2 & G). split; [exact G|].
    cbn [post resE]. rewrite A2. apply r_talt_other; [exact X1|intros t; discriminate].
  - destruct (rollback s s1 F1) as (s2 & -> & A2 & _ & G).
    destruct (sub_call c (IAlt es') s2 (cx_frame c s s2 G P)) as [m3 s3 p3 F3 X3|X3|Z3];
      [cbn [post] in X3; rewrite A2 in X3; assert (X := r_talt_fail c e1 es' _ _ _ X1 X3)..|].
    + split; [exact (frame_trans _ _ _ G F3)|exact X].
    + split; [exact I|exact X].
    + apply (fuel_below _ _ _ _ _ _ Z3); [discriminate|]. intros k ST. cbn [sterm run] in ST.
      destruct (run_or_fuel k c (TEval e1) (abs_st s) _ X1) as [E|E]; rewrite E in ST; [|destruct ST; reflexivity].
      cbn [resE] in ST.
      cbn [sterm]. rewrite A2. exact ST.
Qed.

(* Repeat.parse from the attempt on, the trivia (if any) having been skipped up to s1 *)
Lemma sim_star_body c e first s s1 pw : cx c s ->
  frame (icheckpoint s) s1 -> skips1 first c (abs_st s) (Ok (abs_st s1) pw) ->
  (forall k, sterm (S k) c (IStar e first) s ->
     match run g k c (TEval e) (abs_st s1) with
     | Ok s3 p3 => match run g k c (TStar e) s3 with Ok s4 p4 => Ok s4 (pw ++ p3 ++ p4) | x => x end
     | Fail t => Ok (set_trk (abs_st s) t) []
     | x => x
     end <> Fuel) ->
  sound (S f) c (IStar e first) s
    (match irun g f (IEval e) s1 with
     | IOk true s2 p2 =>
         match iok s2 with
         | None => ICrash
         | Some s3 =>
             match irun g f (IStar e false) s3 with
             | IOk m s4 p4 => IOk m s4 (pw ++ p2 ++ p4)
             | x => x
             end
         end
     | IOk false s2 _ => match irestore s2 with Some s3 => IOk true s3 [] | None => ICrash end
     | x => x
     end).
Proof.
  intros P F1 X1 H.
  destruct (sub_call c (IEval e) s1 (cx_frame c (icheckpoint s) s1 F1 P)) as [m2 s2 p2 F2 X2|X2|Z2].
  2:{ split; [exact I|]. rewrite post_star. exact (r_star_end first c e _ _ _ _ X1 X2 I). }
  2:{ apply (fuel_below _ _ _ _ _ _ Z2); [discriminate|]. intros k ST. apply H in ST. sub_nofuel ST. }
  assert (F12 := frame_trans _ _ _ F1 F2).
  destruct m2.
  - destruct (commit s s2 F12) as (s3 & -> & A3 & G).
    destruct (sub_call c (IStar e false) s3 (cx_frame c s s3 G P)) as [m4 s4 p4 F4 X4|X4|Z4];
      [cbn [post] in X4; rewrite A3 in X4; assert (X := r_star_ok first c e _ _ _ _ _ _ X1 X2 X4)..|].
    + split; [exact (frame_trans _ _ _ G F4)|]. rewrite post_star. destruct m4; cbn [resE] in *; [|exact X].
      rewrite !hide_app, (skips1_hide _ _ _ _ _ X1). exact X.
    + split; [exact I|]. rewrite post_star. exact X.
    + apply (fuel_below _ _ _ _ _ _ Z4); [discriminate|]. intros k ST. apply H in ST.
      destruct (run_or_fuel k _ _ _ _ X2) as [E|E]; rewrite E in ST; [|destruct ST; reflexivity].
      cbn [resE] in ST.
      cbn [sterm]. rewrite A3. sub_nofuel ST.
  - destruct (rollback s s2 F12) as (s3 & -> & A3 & _ & G). split; [exact G|].
    rewrite post_star. cbn [resE]. rewrite hide_nil, A3. exact (r_star_end first c e _ _ _ _ X1 X2 I).
Qed.

Lemma step_star e first : step_ok (IStar e first).
Proof.
  intros c s P. cbn [irun]. destruct first.
  - apply sim_star_body; [exact P|apply frame_refl|reflexivity|]. intros k ST. exact ST.
  - destruct (sub_call c ITrivia (icheckpoint s) P) as [m1 s1 pw F1 X1|X1|Z1].
    + apply sim_star_body; [exact P|exact F1|exact X1|]. intros k ST. cbn [sterm run] in ST.
      destruct (skips_or_fuel k c (abs_st s) _ X1) as [E|E]; rewrite E in ST; [|destruct ST; reflexivity].
      exact ST.
    + split; [exact I|]. apply r_tstar_skipbad; [exact X1|exact I].
    + apply (fuel_below _ _ _ _ _ _ Z1); [discriminate|]. intros k ST. cbn [sterm run] in ST.
      cbn [sterm]. change (abs_st (icheckpoint s)) with (abs_st s).
      sub_nofuel ST.
Qed.

Lemma step_trivia : step_ok ITrivia.
Proof.
  intros c s P. cbn [irun].
  destruct (Nat.ltb 0 (i_depth s)) eqn:Ed.
  { split; [apply frame_refl|]. apply skips_id.
    intros A. apply (proj1 (proj2 P)) in A. rewrite A in Ed. discriminate. }
  assert (NA : c_atom c = NonAtomic).
  { apply (proj1 (proj2 P)). apply Nat.ltb_ge in Ed. lia. }
  destruct (negb (has_rule g WS_ID) && negb (has_rule g CM_ID)) eqn:En.
  { split; [apply frame_refl|]. apply skips_none, skip_expr_none, En. }
  destruct (sub_call (skip_ctx c) ITrivLoop _ (pre_trivloop c s P)) as [m1 s1 p1 F1 X1|X1|Z1].
  - destruct m1; [|destruct (nofuel _ _ _ X1)].
    split; [|exact (skips_some c _ _ _ NA (skip_expr_some En) X1)].
    destruct F1 as [A1 [A2 [A3 [A4 [A5 A6]]]]]. repeat split; assumption.
  - split; [exact I|exact (skips_some c _ _ _ NA (skip_expr_some En) X1)].
  - (* the loop is answered by the same step of the reference *)
    apply (fuel_same _ _ _ _ _ _ Z1); [cbn [rk]; lia|]. intros k ST. cbn [sterm] in ST.
    unfold skip_with in ST. rewrite NA, (skip_expr_some En) in ST.
    exact (loopE_inv k (skip_ctx c) (abs_st s) ltac:(discriminate) En ST).
Qed.

Lemma step_trivrule n : step_ok (ITrivRule n).
Proof.
  intros c s P. cbn [irun]. destruct P as [B [CA TN]].
  destruct (lookup g n) as [r|] eqn:L.
  2:{ split; [exact I|]. split; [apply r_ref_undef; exact L|intros; discriminate]. }
  assert (NM := lookup_name _ _ _ L).
  assert (P0 : pre c (IRule r) (icheckpoint s)) by exact (pre_rule c n r _ L B (or_introl TN)).
  destruct (sub_call c (IRule r) _ P0) as [m1 s1 p1 F1 X1|X1|Z1];
    [cbn [post] in X1; rewrite NM in X1..|].
  2:{ split; [exact I|]. split; [exact X1|intros; discriminate]. }
  2:{ apply (fuel_same _ _ _ _ _ _ Z1); [cbn [rk]; lia|]. intros k ST. cbn [sterm] in *. rewrite NM. exact ST. }
  destruct m1.
  - destruct (commit s s1 F1) as (s2 & -> & A2 & G). split; [exact G|].
    split; [cbn [resE]; rewrite A2; exact X1|intros; discriminate].
  - destruct (rollback s s1 F1) as (s2 & -> & A2 & T2 & G). split; [exact G|].
    split; [cbn [resE]; rewrite T2; exact X1|].
    intros s' ps Eq. inversion Eq; subst. rewrite A2, T2. reflexivity.
Qed.

Lemma step_wsloop : step_ok IWsLoop.
Proof.
  intros c s P. cbn [irun]. destruct P as [B CA].
  assert (NA : c_atom c <> NonAtomic) by (rewrite CA; discriminate).
  assert (Sk := skips_id c (abs_st s) NA : skips1 false c _ _).
  destruct (sub_call c (ITrivRule WS_ID) s (conj B (conj CA eq_refl))) as [m1 s1 p1 F1 [X1 Y1]|[X1 _]|Z1].
  2:{ split; [exact I|]. exact (r_star_end false c wR _ _ _ _ Sk X1 I). }
  2:{ apply (fuel_below _ _ _ _ _ _ Z1); [discriminate|]. intros k ST. cbn [sterm run] in ST.
      rewrite atomic_no_trivia in ST by exact NA.
      change (run g k c (TEval wR) (abs_st s) <> Fuel). sub_nofuel ST. }
  destruct m1.
  - cbn [resE] in X1. rewrite (hide_id c p1) in X1 by (rewrite CA; discriminate).
    destruct (sub_call c IWsLoop s1 (conj (cxb_frame c s s1 F1 B) CA)) as [m2 s2 p2 F2 X2|X2|Z2];
      [assert (X := r_star_ok false c wR _ _ _ _ _ _ Sk X1 X2)..|].
    + destruct m2; [|destruct (nofuel _ _ _ X2)]. split; [exact (frame_trans _ _ _ F1 F2)|exact X].
    + split; [exact I|exact X].
    + apply (fuel_below _ _ _ _ _ _ Z2); [discriminate|]. intros k ST. cbn [sterm run] in ST.
      rewrite atomic_no_trivia in ST by exact NA.
      destruct (run_or_fuel k c (TEval wR) (abs_st s) _ X1) as [E|E]; rewrite E in ST; [|destruct ST; reflexivity].
      cbn [resE] in ST.
      sub_nofuel ST.
  - split; [exact F1|]. cbn [post resL]. rewrite (Y1 s1 p1 eq_refl).
    exact (r_star_end false c wR _ _ _ _ Sk X1 I).
Qed.

Lemma step_trivloop : step_ok ITrivLoop.
Proof.
  intros c s P. cbn [irun]. destruct P as [B CA].
  assert (NA : c_atom c <> NonAtomic) by (rewrite CA; discriminate).
  assert (NAt : c_atom c <> Atomic) by (rewrite CA; discriminate).
  unfold sound. cbn [post]. rewrite loopE_eq.
  destruct (has_rule g WS_ID) eqn:HW.
  - (* WHITESPACE is defined *)
    destruct (sub_call c IWsLoop s (conj B CA)) as [m1 s1 p1 F1 X1|X1|Z1];
      [assert (W1 := X1); apply (r_star_same c wR (abs_st s) _ NA) in X1; fold wS in X1..|].
    2:{ split; [exact I|].
        destruct (has_rule g CM_ID); [exact (r_seq2_bad c wS _ _ _ X1 I)|exact X1]. }
    2:{ (* the whitespace loop is answered by the same step of the reference *)
        apply (fuel_same c ITrivLoop s _ _ _ Z1); [cbn [rk]; lia|]. intros k ST.
        cbn [sterm] in *. unfold tl_term in ST. rewrite HW in ST. destruct (has_rule g CM_ID); [exact (proj1 ST)|exact ST]. }
    destruct m1; [|destruct (nofuel _ _ _ X1)].
    destruct (has_rule g CM_ID) eqn:HC; [|split; [exact F1|exact X1]].
    assert (B1 := cxb_frame c s s1 F1 B).
    (* a run of the whole loop within S k runs `COMMENT ~ WHITESPACE*` within k *)
    assert (CM : forall k, tl_term (S k) c (abs_st s) ->
              run g (S k) c (TStar xE) (abs_st s1) <> Fuel /\
              run g k c (TEval xE) (abs_st s1) <> Fuel /\
              run g k c (TEval xE) (abs_st s1) =
              match run g k c (TEval cR) (abs_st s1) with
              | Ok s2 p2 => match run g k c (TEval wS) s2 with Ok s3 p3 => Ok s3 (p2 ++ p3) | x => x end
              | x => x
              end).
    { intros k ST. unfold tl_term in ST. rewrite HW, HC in ST. destruct ST as [D1 C1].
      apply (run_is _ _ _ _ _ D1) in W1. assert (C1' := C1 _ _ W1). split; [exact C1'|].
      cbn [run] in C1'. rewrite atomic_no_trivia in C1' by exact NA.
      assert (STX : run g k c (TEval xE) (abs_st s1) <> Fuel) by sub_nofuel C1'.
      split; [exact STX|exact (seq2_at k c cR wS (abs_st s1) NA STX)]. }
    destruct (sub_call c (ITrivRule CM_ID) s1 (conj B1 (conj CA eq_refl))) as [m2 s2 p2 F2 [X2 Y2]|[X2 _]|Z2];
      [fold cR in X2..|].
    2:{ split; [exact I|].
        assert (Q := r_star_end true c xE _ _ _ _ eq_refl (r_seq2_bad c cR wS _ _ X2 I) I).
        exact (r_seq2_ok c wS (EStar xE) _ _ _ _ NA X1 Q). }
    2:{ apply (fuel_below c ITrivLoop s _ _ _ Z2); [discriminate|]. intros k ST.
        destruct (CM k ST) as (_ & STX & Er). rewrite Er in STX.
        change (run g k c (TEval cR) (abs_st s1) <> Fuel). sub_nofuel STX. }
    destruct m2.
    + cbn [resE] in X2. rewrite (hide_id c p2 NAt) in X2.
      destruct (sub_call c ITrivLoop s2 (conj (cxb_frame c s1 s2 F2 B1) CA)) as [m3 s3 p3 F3 X3|X3|Z3];
        [cbn [post] in X3; rewrite loopE_eq, HW, HC in X3;
         assert (X := r_interleave c wS cR _ _ _ _ _ _ NA X1 X2 X3 (resL_nofail _))..|].
      * destruct m3; [|destruct (nofuel _ _ _ X3)].
        split; [exact (frame_trans _ _ _ F1 (frame_trans _ _ _ F2 F3))|exact X].
      * split; [exact I|exact X].
      * (* after a comment the reference runs the whitespace loop, then its own loop again *)
        apply (fuel_below c ITrivLoop s _ _ _ Z3); [discriminate|]. intros k ST.
        destruct (CM k ST) as (C1' & STX & Er). rewrite Er in STX.
        assert (STc : run g k c (TEval cR) (abs_st s1) <> Fuel) by sub_nofuel STX.
        rewrite (run_is _ _ _ _ _ STc X2) in Er, STX.
        unfold wS in Er, STX. rewrite run_star_same in Er, STX by exact NA.
        cbn [sterm]. unfold tl_term. rewrite HW, HC.
        split; [sub_nofuel STX|].
        intros s4 p4 E4. cbn [run] in C1'. rewrite atomic_no_trivia in C1' by exact NA.
        rewrite Er, E4 in C1'. cbv beta iota in C1'. sub_nofuel C1'.
    + (* COMMENT does not match: the loop ends *)
      split; [exact (frame_trans _ _ _ F1 F2)|]. cbn [resL]. rewrite (Y2 s2 p2 eq_refl).
      assert (Q := r_star_end true c xE _ _ _ _ eq_refl (r_seq2_bad c cR wS _ _ X2 I) I).
      assert (Fin := r_seq2_ok c wS (EStar xE) _ _ _ _ NA X1 Q). cbn beta iota in Fin.
      rewrite app_nil_r in Fin. exact Fin.
  - (* no WHITESPACE *)
    destruct (has_rule g CM_ID) eqn:HC; [|split; [apply frame_refl|]; apply r_seq, runs_seq_nil; reflexivity].
    destruct (sub_call c (ITrivRule CM_ID) s (conj B (conj CA eq_refl))) as [m2 s2 p2 F2 [X2 Y2]|[X2 _]|Z2];
      [fold cR in X2..|].
    2:{ split; [exact I|]. exact (r_star_end true c cR _ _ _ _ eq_refl X2 I). }
    2:{ apply (fuel_below c ITrivLoop s _ _ _ Z2); [discriminate|]. intros k ST.
        cbn [sterm] in ST. unfold tl_term in ST. rewrite HW, HC in ST. cbn [run] in ST.
        rewrite atomic_no_trivia in ST by exact NA.
        change (run g k c (TEval cR) (abs_st s) <> Fuel). sub_nofuel ST. }
    destruct m2.
    + cbn [resE] in X2. rewrite (hide_id c p2 NAt) in X2.
      destruct (sub_call c ITrivLoop s2 (conj (cxb_frame c s s2 F2 B) CA)) as [m3 s3 p3 F3 X3|X3|Z3];
        [cbn [post] in X3; rewrite loopE_eq, HW, HC in X3; apply (r_star_same c cR (abs_st s2) _ NA) in X3;
         assert (X := r_star_ok true c cR _ _ _ _ _ _ eq_refl X2 X3)..|].
      * destruct m3; [|destruct (nofuel _ _ _ X3)]. split; [exact (frame_trans _ _ _ F2 F3)|exact X].
      * split; [exact I|exact X].
      * apply (fuel_below c ITrivLoop s _ _ _ Z3); [discriminate|]. intros k ST.
        cbn [sterm] in ST. unfold tl_term in ST. rewrite HW, HC in ST. cbn [run] in ST.
        rewrite atomic_no_trivia in ST by exact NA.
        destruct (run_or_fuel k _ _ _ _ X2) as [E|E]; rewrite E in ST; [|destruct ST; reflexivity].
        cbn [resE] in ST.
        cbn [sterm]. unfold tl_term. rewrite HW, HC. sub_nofuel ST.
    + split; [exact F2|]. cbn [resL]. rewrite (Y2 s2 p2 eq_refl).
      exact (r_star_end true c cR _ _ _ _ eq_refl X2 I).
Qed.

Lemma step_rule r : step_ok (IRule r).
Proof.
  intros c s P. rewrite irun_rule. assert (PC := enter_cx c r s P). destruct P as [B [L Hd]].
  destruct (sub_call (rule_ctx c r) (IEval (r_body r)) _ PC) as [m3 s3 kids F3 X3|X3|Z3];
    [cbn [post] in X3; rewrite abs_enter in X3;
     assert (X := r_ref c (r_name r) None (abs_st s) r _ L X3)..|].
  2:{ split; [exact I|exact X]. }
  2:{ apply (fuel_below _ _ _ _ _ _ Z3); [discriminate|]. intros k ST. apply (ref_term k c r None _ L) in ST.
      cbn [sterm]. rewrite abs_enter. exact ST. }
  destruct (leave_enter r s s3 F3) as [LR [FR AR]]. rewrite LR.
  set (s5 := upd_rules (leave r s3) (i_rules s)) in *.
  destruct m3; cbn [negb resE] in *.
  - unfold finish_rule in X. change (s_pos (abs_st s)) with (i_pos s) in X.
    destruct (r_silent r) eqn:S; (split; [exact FR|]); cbn [post resE].
    + rewrite AR, <- (silent_hide c r _ _ kids L S X3). exact X.
    + rewrite (pair_match c r _ _ kids _ L S).
      change (i_pos s5) with (s_pos (abs_st s5)). change (i_tags s5) with (s_tags (abs_st s5)).
      change (abs_st (upd_tags s5 (tl (s_tags (abs_st s5)))))
        with (set_tags (abs_st s5) (tl (s_tags (abs_st s5)))).
      rewrite AR. destruct (visible c r); exact X.
  - split; [exact FR|]. cbn [post resE]. change (i_trk s5) with (s_trk (abs_st s5)). rewrite AR. exact X.
Qed.

Lemma sim_step t : step_ok t.
Proof.
  destruct t as [e|es|es|e first| | | |n|r].
  - apply step_eval.
  - apply step_seq.
  - apply step_alt.
  - apply step_star.
  - exact step_trivia.
  - exact step_wsloop.
  - exact step_trivloop.
  - apply step_trivrule.
  - apply step_rule.
Qed.

End Step.

Lemma sim_all : forall f, sim_at f.
Proof.
  induction f as [|f IH]; intros t c s P; [|exact (sim_step f IH t c s P)].
  intros k Lk. assert (A := rk_range t). destruct k as [|k]; [|lia].
  apply sterm0. intros ->. cbn [rk] in Lk. lia.
Qed.

Theorem iparse_refines : forall f rule input k,
  match iparse g f rule input k with
  | IOk true s' ps  => (exists f', parse g f' rule input k = Ok (abs_st s') ps) /\ i_saved s' = [] /\ i_dcps s' = [] /\ i_rules s' = [] /\ i_depth s' = 0
  | IOk false s' _  => (exists f', parse g f' rule input k = Fail (i_trk s'))   /\ i_saved s' = [] /\ i_dcps s' = [] /\ i_rules s' = []
  | IUndef          => exists f', parse g f' rule input k = Err
  | ICrash          => False
  | IFuel           => True
  end.
Proof.
  intros f rule input k. unfold iparse.
  destruct (lookup g rule) as [r|] eqn:L.
  2:{ exists 1. unfold parse, eval. cbn [run]. rewrite L. reflexivity. }
  assert (NM := lookup_name _ _ _ L).
  assert (P : pre ctx0 (IRule r) (ist0 input k))
    by (apply (pre_rule ctx0 rule r _ L); [split; reflexivity|right; split; reflexivity]).
  destruct (sub_call f (sim_all f) ctx0 (IRule r) _ P) as [m s' ps F X|X|]; [| |exact I];
    cbn [post] in X; rewrite NM in X; destruct X as [f' [X _]].
  - destruct F as [A1 [A2 [A3 [A4 _]]]]. cbn in A1, A2, A3, A4.
    destruct m; (split; [exists f'; exact X|]); repeat split; assumption.
  - exists f'. exact X.
Qed.

End R.

Definition all_silent_ok (g : grammar) : Prop :=
  forall n r, lookup g n = Some r -> r_silent r = true -> silent_ok g r.

(* The hypothesis on silent rules is needed: a silent $ rule (or a silent ! rule outside the
   trivia names) passes its children up unfiltered, and an enclosing @ rule then dissolves pairs
   that the reference semantics keeps. Such rules cannot be written in grammar text (one
   modifier per rule), but the type `rule` of Syntax.v allows them. *)

Definition refines_pairs (g : grammar) : Prop :=
  forall f rule input k,
    match iparse g f rule input k with
    | IOk true s' ps => exists f', parse g f' rule input k = Ok (abs_st s') ps
    | _ => True
    end.

Lemma parse_at g f0 rule input k r : parse g f0 rule input k = r -> r <> Fuel ->
  forall f' r', parse g f' rule input k = r' -> r' <> Fuel -> r' = r.
Proof.
  intros H D f' r' H' D'.
  exact (runs_det g _ _ _ _ _ (ex_intro _ f' (conj H' D')) (ex_intro _ f0 (conj H D))).
Qed.

(* one input on which both sides terminate with different results refutes it *)
Lemma not_refines g f rule input k :
  match iparse g f rule input k, parse g f rule input k with
  | IOk true s' ps, Ok s1 ps1 => Ok s1 ps1 <> Ok (abs_st s') ps
  | _, _ => False
  end -> ~ refines_pairs g.
Proof.
  intros C H. specialize (H f rule input k). revert C H.
  destruct (iparse g f rule input k) as [[|] s' ps| | |]; [|intros []..].
  destruct (parse g f rule input k) as [s1 ps1| | |] eqn:E; [|intros []..].
  intros C [f' H]. apply C. exact (parse_at g f' _ _ _ _ H ltac:(discriminate) f _ E ltac:(discriminate)).
Qed.

(* a silent compound-atomic rule used inside an atomic rule: a = @{ c }, c = _${ b }, b = { "a" } *)
Definition cex_silent_compound : grammar :=
  [ {| r_name := 10; r_silent := false; r_kind := KAtomic; r_body := ERef 12 None |};
    {| r_name := 12; r_silent := true; r_kind := KCompound; r_body := ERef 11 None |};
    {| r_name := 11; r_silent := false; r_kind := KNormal; r_body := EStr [97%N] |} ].

Lemma silent_compound_differs : ~ refines_pairs cex_silent_compound.
Proof. apply (not_refines _ 20 10%N [97%N] 0). vm_compute. discriminate. Qed.

(* the same with a silent non-atomic rule: a = @{ c }, c = _!{ b }, b = { "a" } *)
Definition cex_silent_nonatomic : grammar :=
  [ {| r_name := 10; r_silent := false; r_kind := KAtomic; r_body := ERef 12 None |};
    {| r_name := 12; r_silent := true; r_kind := KNonAtomic; r_body := ERef 11 None |};
    {| r_name := 11; r_silent := false; r_kind := KNormal; r_body := EStr [97%N] |} ].

Lemma silent_nonatomic_differs : ~ refines_pairs cex_silent_nonatomic.
Proof. apply (not_refines _ 20 10%N [97%N] 0). vm_compute. discriminate. Qed.

Lemma silent_ok_forall g : Forall (fun r => r_silent r = true -> silent_ok g r) g -> all_silent_ok g.
Proof.
  intros H n r L. apply lookup_In in L. rewrite Forall_forall in H. apply H. exact L.
Qed.

(* allowed: a silent atomic rule _@{ b } ... *)
Definition ex_silent_atomic : grammar :=
  [ {| r_name := 10; r_silent := true; r_kind := KAtomic; r_body := ERef 11 None |};
    {| r_name := 11; r_silent := false; r_kind := KNormal; r_body := EStr [97%N] |} ].

Example silent_atomic_ok : forall n r, lookup ex_silent_atomic n = Some r -> r_silent r = true ->
  silent_ok ex_silent_atomic r.
Proof.
  apply silent_ok_forall. repeat (apply Forall_cons || apply Forall_nil); intros S; try discriminate S.
  left. reflexivity.
Qed.

(* ... and a silent WHITESPACE whose body mentions a non-silent rule:
   WHITESPACE = _{ sp }, sp = { " " }, top = { "a" ~ "b" }; no restriction on the body *)
Definition ex_silent_ws : grammar :=
  [ {| r_name := 0; r_silent := true; r_kind := KNormal; r_body := ERef 11 None |};
    {| r_name := 11; r_silent := false; r_kind := KNormal; r_body := EStr [32%N] |};
    {| r_name := 10; r_silent := false; r_kind := KNormal; r_body := ESeq [EStr [97%N]; EStr [98%N]] |} ].

Example silent_ws_ok : forall n r, lookup ex_silent_ws n = Some r -> r_silent r = true ->
  silent_ok ex_silent_ws r.
Proof.
  apply silent_ok_forall. repeat (apply Forall_cons || apply Forall_nil); intros S; try discriminate S.
  left. reflexivity.
Qed.

Example silent_ws_agrees :
  match iparse ex_silent_ws 20 10%N [97; 32; 98]%N 0 with
  | IOk true s' ps => parse ex_silent_ws 20 10%N [97; 32; 98]%N 0 = Ok (abs_st s') ps
                      /\ ps = [Pair 10 0 3 [] None]
  | _ => False
  end.
Proof. vm_compute. split; reflexivity. Qed.

Notation conclusion g f rule input k :=
  (match iparse g f rule input k with
   | IOk true s' ps  => (exists f', parse g f' rule input k = Ok (abs_st s') ps) /\ i_saved s' = [] /\ i_dcps s' = [] /\ i_rules s' = [] /\ i_depth s' = 0
   | IOk false s' _  => (exists f', parse g f' rule input k = Fail (i_trk s'))   /\ i_saved s' = [] /\ i_dcps s' = [] /\ i_rules s' = []
   | IUndef          => exists f', parse g f' rule input k = Err
   | ICrash          => False
   | IFuel           => True
   end) (only parsing).

Lemma one_modifier_silent_ok g :
  (forall n r, lookup g n = Some r -> r_silent r = true -> r_kind r = KNormal \/ r_kind r = KAtomic) ->
  all_silent_ok g.
Proof.
  intros NS n r L S. destruct (NS n r L S) as [K|K].
  - right; left; exact K.
  - left; unfold hides; rewrite K; reflexivity.
Qed.

(* what grammar text can express: at most one modifier per rule, so a silent rule is a plain
   rule; also covers silent @ rules *)
Corollary iparse_refines_one_modifier : forall g,
  (forall n r, lookup g n = Some r -> r_silent r = true -> r_kind r = KNormal \/ r_kind r = KAtomic) ->
  forall f rule input k, conclusion g f rule input k.
Proof. intros g NS. apply iparse_refines, one_modifier_silent_ok, NS. Qed.

(* by kind alone (sufficient, not necessary: `silent_ok` also admits a silent $ rule whose body
   yields no pairs): no silent $ rule, and silent ! rules only under the trivia names *)
Lemma kinds_silent_ok g :
  (forall n r, lookup g n = Some r -> r_silent r = true ->
     r_kind r <> KCompound /\ (r_kind r = KNonAtomic -> is_trivia_name n = true)) ->
  all_silent_ok g.
Proof.
  intros NS n r L S.
  destruct (NS n r L S) as [A B]. rewrite <- (lookup_name _ _ _ L) in B.
  unfold silent_ok, hides. destruct (r_kind r) eqn:K.
  - right; left; reflexivity.
  - left; reflexivity.
  - exfalso; apply A; reflexivity.
  - left. apply B. reflexivity.
Qed.

Corollary iparse_refines_kinds : forall g,
  (forall n r, lookup g n = Some r -> r_silent r = true ->
     r_kind r <> KCompound /\ (r_kind r = KNonAtomic -> is_trivia_name n = true)) ->
  forall f rule input k, conclusion g f rule input k.
Proof. intros g NS. apply iparse_refines, kinds_silent_ok, NS. Qed.

Corollary iparse_refines_no_silent : forall g,
  (forall n r, lookup g n = Some r -> r_silent r = false) ->
  forall f rule input k, conclusion g f rule input k.
Proof.
  intros g NS. apply iparse_refines. intros n r L S. rewrite (NS n r L) in S. discriminate S.
Qed.

Print Assumptions iparse_refines.
