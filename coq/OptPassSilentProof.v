(* OptPassSilentProof.v — the "inline silent" pass (OptPassSilent.pass_inline_silent: bottom-up, in place, rules
   rewritten in table order) only produces tables the validator accepts. Invariant through the fold: the current body
   of every rule is a validated image of its original body, at a fuel that grows by `gdepth g` per rewritten rule
   (OptMono.ochk_mono_le lifts the older facts). *)
From Coq Require Import List ZArith Bool Lia.
Import ListNotations.
From PP Require Import Syntax Spec SpecSyn SpecEquiv Opt OptProof OptPass OptPassProof OptPassCompose OptPassSilent OptPassHeads OptMono.
Open Scope nat_scope.

Lemma lookup_update tbl n b m :
  lookup (update tbl n b) m =
  match lookup tbl m with
  | Some r => Some (if N.eqb (r_name r) n then set_body r b else r)
  | None => None
  end.
Proof.
  induction tbl as [|r tbl IH]; [reflexivity|]. unfold update in *. cbn [map lookup].
  assert (E : r_name (if N.eqb (r_name r) n then set_body r b else r) = r_name r)
    by (destruct (N.eqb (r_name r) n); reflexivity).
  rewrite E. destruct (N.eqb (r_name r) m); [reflexivity|exact IH].
Qed.

Lemma plain_silent_heads r rt : heads_eq r rt -> plain_silent rt = plain_silent r.
Proof. intros [A [B C]]. unfold plain_silent. rewrite A, B, C. reflexivity. Qed.

Lemma cong_leaf (R : expr -> expr -> Prop) x y : cong R x y -> childless y = true -> x = y.
Proof. intros C. destruct C; try discriminate. reflexivity. Qed.

Section P.
Variables g g' : grammar.
Hypothesis Hdef : forall n, defined_in g' n = defined_in g n.
Variable bi : N -> bool.

Definition Inv (F : nat) (tbl : grammar) : Prop :=
  same_heads g tbl /\
  forall n r rt, lookup g n = Some r -> lookup tbl n = Some rt ->
    forall toff, ochk g g' F toff (r_body r) (r_body rt) = true.

(* the cycle check `refs_to` plays no part: the validator accepts the inlining whether or not it is made *)
Lemma inline_silent1_cases tbl e : inline_silent1 bi tbl e = e \/
  exists n rt, e = ERef n None /\ lookup tbl n = Some rt /\ plain_silent rt = true /\
               inline_silent1 bi tbl e = r_body rt.
Proof.
  destruct e; try (left; reflexivity). destruct tag as [t|]; [left; reflexivity|]. cbn [inline_silent1].
  destruct (bi n); [left; reflexivity|]. destruct (lookup tbl n) as [rt|] eqn:L; [|left; reflexivity].
  destruct (plain_silent rt && negb (refs_to bi _ tbl n [r_body rt] [])) eqn:B; [|left; reflexivity].
  apply andb_prop in B. right. exists n, rt. repeat split; [exact L|apply B].
Qed.

Lemma ochk_silent_bu F tbl : Inv F tbl -> forall f e toff, depth e <= f ->
  ochk g g' (f + F) toff e (map_bu (inline_silent1 bi tbl) e) = true.
Proof.
  intros [Hh HI]. induction f as [|f IH]; intros e toff D; [pose proof (depth_pos e); lia|].
  change (S f + F) with (S (f + F)).
  destruct (map_bu_node (inline_silent1 bi tbl) e) as [e1 [-> C1]].
  assert (Node : ochk g g' (S (f + F)) toff e e1 = true).
  { eapply (cong_ochk g g' Hdef); [|exact C1]. intros a b [-> Da]. apply IH. lia. }
  destruct (inline_silent1_cases tbl e1) as [->|[n [rt [-> [Lt [P ->]]]]]]; [exact Node|].
  rewrite (cong_leaf _ _ _ C1 eq_refl).
  pose proof (heads_lookup g tbl Hh n) as SL. rewrite Lt in SL.
  destruct (lookup g n) as [r|] eqn:Lg; [|contradiction].
  apply (ochk_inline g g' (f + F) toff n r (r_body rt) Lg).
  - rewrite <- (plain_silent_heads r rt SL). exact P.
  - apply (ochk_mono_le g g' F (f + F)); [lia|]. exact (HI n r rt Lg Lt toff).
Qed.

Lemma Inv_mono F F' tbl : F <= F' -> Inv F tbl -> Inv F' tbl.
Proof.
  intros L [Hh HI]. split; [exact Hh|]. intros n r rt Lg Lt toff.
  apply (ochk_mono_le g g' F F'); [exact L|]. exact (HI n r rt Lg Lt toff).
Qed.

Lemma Inv_update F tbl n rn : Inv F tbl -> lookup g n = Some rn -> lookup tbl n = Some rn ->
  Inv (gdepth g + F) (update tbl n (map_bu (inline_silent1 bi tbl) (r_body rn))).
Proof.
  intros I Lg Lt. pose proof I as [Hh HI]. split.
  - eapply heads_trans; [exact Hh|apply update_heads].
  - intros m r rt Lgm Lu toff. rewrite lookup_update in Lu.
    destruct (lookup tbl m) as [rm|] eqn:Ltm; [|discriminate]. inversion Lu; subst rt; clear Lu.
    pose proof (lookup_name tbl m rm Ltm) as Nm.
    destruct (N.eqb (r_name rm) n) eqn:E.
    + apply N.eqb_eq in E. rewrite Nm in E. subst n.
      rewrite Lg in Lgm. inversion Lgm; subst r. rewrite Lt in Ltm. inversion Ltm; subst rm.
      cbn [set_body r_body]. apply (ochk_silent_bu F tbl I).
      apply (gdepth_In g rn). exact (lookup_In g m rn Lg).
    + apply (ochk_mono_le g g' F (gdepth g + F)); [lia|]. exact (HI m r rm Lgm Ltm toff).
Qed.

Definition sstep (tbl : grammar) (n : N) : grammar :=
  if bi n then tbl
  else match lookup tbl n with
       | Some r => update tbl n (map_bu (inline_silent1 bi tbl) (r_body r))
       | None => tbl
       end.

(* `order` has no duplicates, so a rule still to come has its original body (`Fresh`), of depth <= gdepth g *)
Lemma fold_Inv : forall order tbl F, nodupN order = true ->
  (forall m, In m order -> lookup tbl m = lookup g m) -> Inv F tbl ->
  Inv (length order * gdepth g + F) (fold_left sstep order tbl).
Proof.
  induction order as [|n order IH]; intros tbl F ND Fresh I; [exact I|].
  cbn [nodupN] in ND. apply andb_prop in ND. destruct ND as [N1 N2]. apply negb_true_iff in N1.
  cbn [fold_left length].
  replace (S (length order) * gdepth g + F) with (length order * gdepth g + (gdepth g + F)) by lia.
  assert (Other : forall m, In m order -> m <> n).
  { intros m Hm ->. rewrite (memN_In n order Hm) in N1. discriminate. }
  apply IH; [exact N2| |].
  - intros m Hm. unfold sstep. destruct (bi n); [apply Fresh; right; exact Hm|].
    destruct (lookup tbl n) as [rn|] eqn:Ln; [|apply Fresh; right; exact Hm].
    rewrite lookup_update. rewrite (Fresh m (or_intror Hm)).
    destruct (lookup g m) as [rm|] eqn:Lm; [|reflexivity].
    pose proof (lookup_name g m rm Lm) as Nm.
    destruct (N.eqb (r_name rm) n) eqn:E; [|reflexivity].
    apply N.eqb_eq in E. rewrite Nm in E. exfalso. exact (Other m Hm E).
  - unfold sstep. destruct (bi n); [apply (Inv_mono F); [lia|exact I]|].
    destruct (lookup tbl n) as [rn|] eqn:Ln; [|apply (Inv_mono F); [lia|exact I]].
    pose proof (Fresh n (or_introl eq_refl)) as Fn. rewrite Ln in Fn. symmetry in Fn.
    exact (Inv_update F tbl n rn I Fn Ln).
Qed.
End P.

Lemma pass_inline_silent_fold bi order g : pass_inline_silent bi order g = fold_left (sstep bi) order g.
Proof. reflexivity. Qed.

Theorem pass_inline_silent_validated bi order g :
  names_nodup g = true -> defined_in g SKIP_ID = false -> nodupN order = true ->
  ochk_grammar g (pass_inline_silent bi order g) (length order * gdepth g + gdepth g) = true.
Proof.
  intros ND NS NO. set (g' := pass_inline_silent bi order g).
  pose proof (inline_silent_heads bi order g) as Hh. fold g' in Hh.
  pose proof (heads_defined g g' Hh) as Hd.
  assert (I0 : Inv g g' (gdepth g) g).
  { split; [apply heads_refl|]. intros n r rt L1 L2 toff. rewrite L1 in L2. inversion L2; subst rt.
    apply (ochk_refl g g' Hd). apply (gdepth_In g r). exact (lookup_In g n r L1). }
  pose proof (fold_Inv g g' Hd bi order g (gdepth g) NO (fun m _ => eq_refl) I0) as [_ HI].
  rewrite <- pass_inline_silent_fold in HI. fold g' in HI.
  exact (heads_validated g g' _ ND NS Hh HI).
Qed.

Theorem pass_inline_silent_sound bi order g :
  names_nodup g = true -> defined_in g SKIP_ID = false -> nodupN order = true ->
  forall rule input k, defined_in g rule = true ->
    (forall f r, parse g f rule input k = r -> r <> Fuel ->
       exists f', req (parse (pass_inline_silent bi order g) f' rule input k) r) /\
    (forall f r, parse (pass_inline_silent bi order g) f rule input k = r -> r <> Fuel ->
       exists f', req (parse g f' rule input k) r).
Proof.
  intros ND NS NO. apply (ochk_sound g _ (length order * gdepth g + gdepth g)).
  apply pass_inline_silent_validated; assumption.
Qed.
