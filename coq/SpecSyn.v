(* SpecSyn.v — the three kinds of expression the evaluator distinguishes (terminals, constructs
   that are handed on to a task, constructs with a step of their own); what a terminal does to
   the state (`run_terminal`); syntactic predicates over expression trees ("every node satisfies
   p") and their propagation to the sub-tasks the evaluator visits. *)
From Coq Require Import List NArith Bool Arith Lia.
Import ListNotations.
From PP Require Import Base Syntax Spec.

Lemma lookup_name : forall gr n r, lookup gr n = Some r -> r_name r = n.
Proof.
  induction gr as [|r0 gr IH]; intros n r H; cbn in H; [discriminate|].
  destruct (N.eqb_spec (r_name r0) n) as [E|E]; [inversion H; subst; reflexivity|apply IH; exact H].
Qed.

Lemma lookup_In : forall gr n r, lookup gr n = Some r -> In r gr.
Proof.
  induction gr as [|r0 gr IH]; intros n r H; cbn in H; [discriminate|].
  destruct (N.eqb (r_name r0) n); [inversion H; subst; left; reflexivity|right; eapply IH; exact H].
Qed.

Lemma lookup_app : forall g h m,
  lookup (g ++ h) m = match lookup g m with Some r => Some r | None => lookup h m end.
Proof.
  induction g as [|r g IH]; intros h m; cbn; [reflexivity|].
  destruct (N.eqb (r_name r) m); [reflexivity|apply IH].
Qed.

(* evaluated without a recursive call *)
Definition terminal (e : expr) : bool :=
  match e with
  | ERef _ _ | ESeq _ | EAlt _ | EOpt _ | EStar _ | EPlus _ | ERepN _ _ | ERepMin _ _
  | ERepMax _ _ | ERepMinMax _ _ _ | EAnd _ | ENot _ | EGrp _ _ | EPush _ => false
  | _ => true
  end.

(* the terminals that read at least one character when they succeed *)
Definition reads (e : expr) : bool :=
  match e with
  | EStr (_ :: _) | ECIStr (_ :: _) | ERange _ _ | EAny | ECls _ => true
  | _ => false
  end.

(* sequences, choices and the bounded repetitions are run as a task: the repetitions are
   defined as their unrolled sequences *)
Definition unroll (e : expr) : option task :=
  match e with
  | ESeq es => Some (TSeq es)
  | EAlt es => Some (TAlt es)
  | EPlus e1 => Some (TSeq [e1; EStar e1])
  | ERepN e1 n => Some (TSeq (repeat e1 n))
  | ERepMin e1 n => Some (TSeq (repeat e1 n ++ [EStar e1]))
  | ERepMax e1 n => Some (TSeq (repeat (EOpt e1) n))
  | ERepMinMax e1 m n => Some (TSeq (repeat e1 m ++ repeat (EOpt e1) (n - m)))
  | _ => None
  end.

Lemma run_unroll g e t : unroll e = Some t ->
  forall f c s, run g (S f) c (TEval e) s = run g f c t s.
Proof. destruct e; intros U; inversion U; reflexivity. Qed.

Lemma skip_with_case g ev c s (P : res -> Prop) :
  P (Ok s []) -> (forall e, skip_expr g = Some e -> P (ev (skip_ctx c) e s)) ->
  P (skip_with g ev c s).
Proof.
  intros H0 H1. unfold skip_with. destruct (c_atom c); try exact H0.
  destruct (skip_expr g) as [e|]; [apply H1; reflexivity|exact H0].
Qed.

Lemma rest_push_tag tag s : s_rest (push_tag tag s) = s_rest s.
Proof. destruct tag; reflexivity. Qed.
Lemma rest_pop_tag tag s : s_rest (pop_tag tag s) = s_rest s.
Proof. destruct tag; reflexivity. Qed.
Lemma rest_finish_rule c r p s1 kids s2 ps :
  finish_rule c r p s1 kids = (s2, ps) -> s_rest s2 = s_rest s1.
Proof.
  unfold finish_rule. intros H.
  destruct (r_silent r); [inversion H; reflexivity|].
  destruct (visible c r); inversion H; reflexivity.
Qed.

Lemma strip_prefix_skipn lit rest r : strip_prefix lit rest = Some r ->
  r = skipn (length lit) rest /\ length lit <= length rest.
Proof.
  intros H. apply strip_prefix_app in H. subst rest. split.
  - rewrite skipn_app, skipn_all, Nat.sub_diag. reflexivity.
  - rewrite app_length. lia.
Qed.

Lemma strip_prefix_ci_skipn lit rest r : strip_prefix_ci lit rest = Some r ->
  r = skipn (length lit) rest /\ length lit <= length rest.
Proof.
  intros H. split; [eapply strip_prefix_ci_suffix; exact H|].
  apply strip_prefix_ci_length in H. lia.
Qed.

Lemma match_all_skipn : forall ws rest n0 r n, match_all ws rest n0 = Some (r, n) ->
  exists m, n = (n0 + N.of_nat m)%N /\ r = skipn m rest /\ m <= length rest.
Proof.
  induction ws as [|w ws IH]; intros rest n0 r n H; cbn in H.
  - inversion H; subst. exists 0. cbn. split; [lia|split; [reflexivity|lia]].
  - destruct (strip_prefix w rest) as [r1|] eqn:E; [|discriminate].
    apply strip_prefix_skipn in E. destruct E as [-> Hl].
    apply IH in H. destruct H as [m [-> [-> Hm]]].
    rewrite skipn_length in Hm.
    exists (length w + m). split; [unfold lenN; lia|split; [apply skipn_skipn_add|lia]].
Qed.

Lemma find_sub_from_le : forall rest sub acc p,
  find_sub_from sub rest acc = Some p -> (acc <= p <= acc + N.of_nat (length rest))%N.
Proof.
  induction rest as [|x rest IH]; intros sub acc p H; cbn [find_sub_from] in H.
  - destruct (strip_prefix sub []); [|discriminate]. inversion H; subst. cbn. lia.
  - destruct (strip_prefix sub (x :: rest)).
    + inversion H; subst. lia.
    + apply IH in H. cbn [length]. lia.
Qed.

Lemma earliest_le : forall subs rest best p,
  (forall b, best = Some b -> (b <= N.of_nat (length rest))%N) ->
  earliest subs rest best = Some p -> (p <= N.of_nat (length rest))%N.
Proof.
  induction subs as [|sub subs IH]; intros rest best p Hb H; cbn in H.
  - apply Hb. exact H.
  - eapply IH; [|exact H]. intros b Eb.
    destruct (find_sub sub rest) as [q|] eqn:E.
    + unfold find_sub in E. apply find_sub_from_le in E.
      destruct best as [b0|].
      * destruct (N.ltb q b0); inversion Eb; subst; [lia|apply Hb; reflexivity].
      * inversion Eb; subst. lia.
    + apply Hb. exact Eb.
Qed.

(* What a terminal does: it reads some prefix of the remaining text and may change the stack,
   or it fails with the tracker as it is or with a failure recorded for the current rule.
   `moved s s' m`: s' is s after reading m characters. *)
Definition moved (s s' : st) (m : nat) : Prop :=
  m <= length (s_rest s) /\ s_rest s' = skipn m (s_rest s) /\ s_pos s' = (s_pos s + N.of_nat m)%N
  /\ s_tags s' = s_tags s /\ s_trk s' = s_trk s.

Definition terminal_res (rd : bool) (c : ctx) (s : st) (r : res) : Prop :=
  match r with
  | Ok s' ps => ps = [] /\ exists m, moved s s' m /\ (rd = true -> 0 < m)
  | Fail t => t = s_trk s \/ t = record c false (c_rule c) s
  | _ => False
  end.

Lemma terminal_adv b c s m k : m <= length (s_rest s) -> (b = true -> 0 < m) ->
  terminal_res b c s (Ok (set_stk (adv s (N.of_nat m) (skipn m (s_rest s))) k) []).
Proof. intros L P. split; [reflexivity|]. exists m. repeat split; assumption. Qed.

Lemma terminal_one b c s d r : s_rest s = d :: r -> terminal_res b c s (Ok (adv s 1 r) []).
Proof.
  intros E. assert (A := terminal_adv b c s 1 (s_stk s)). rewrite E in A. apply A; cbn; lia.
Qed.

Lemma terminal_stay c s k : terminal_res false c s (Ok (set_stk s k) []).
Proof.
  split; [reflexivity|]. exists 0. split; [|discriminate].
  repeat split; [lia|]. cbn. symmetry. apply N.add_0_r.
Qed.

Lemma terminal_strip b c s w k : (b = true -> 0 < length w) ->
  terminal_res b c s
    match strip_prefix w (s_rest s) with
    | Some r => Ok (set_stk (adv s (lenN w) r) k) []
    | None => Fail (record c false (c_rule c) s)
    end.
Proof.
  intros P. destruct (strip_prefix _ _) eqn:E; [|right; reflexivity].
  apply strip_prefix_skipn in E. destruct E as [-> L]. apply terminal_adv; assumption.
Qed.

Lemma terminal_match c s ws k :
  terminal_res false c s
    match match_all ws (s_rest s) 0 with
    | Some (r, n) => Ok (set_stk (adv s n r) k) []
    | None => Fail (record c false (c_rule c) s)
    end.
Proof.
  destruct (match_all _ _ _) as [[r n]|] eqn:E; [|right; reflexivity].
  apply match_all_skipn in E. destruct E as [m [-> [-> L]]].
  apply terminal_adv; [exact L|discriminate].
Qed.

Lemma run_terminal g e : terminal e = true ->
  forall f c s, terminal_res (reads e) c s (run g (S f) c (TEval e) s).
Proof.
  intros T f c s.
  assert (REC : terminal_res (reads e) c s (Fail (record c false (c_rule c) s)))
    by (right; reflexivity).
  assert (TRK : terminal_res (reads e) c s (Fail (s_trk s))) by (left; reflexivity).
  destruct e; try discriminate T; cbn [run].
  - (* EStr *) apply (terminal_strip _ c s _ (s_stk s)). apply nonempty_length.
  - (* ECIStr *) destruct (strip_prefix_ci _ _) eqn:E; [|exact REC].
    apply strip_prefix_ci_skipn in E. destruct E as [-> L].
    apply (terminal_adv _ c s _ (s_stk s) L). apply nonempty_length.
  - (* ERange *) destruct (s_rest s) as [|d r] eqn:E; [exact REC|].
    destruct (_ && _); [exact (terminal_one _ c s d r E)|exact REC].
  - (* EAny *) destruct (s_rest s) as [|d r] eqn:E; [exact TRK|exact (terminal_one _ c s d r E)].
  - (* ESoi *) destruct (N.eqb _ _); [apply (terminal_stay c s (s_stk s))|exact TRK].
  - (* EEoi *) destruct (s_rest s); [apply (terminal_stay c s (s_stk s))|exact TRK].
  - (* ECls *) destruct (s_rest s) as [|d r] eqn:E; [exact TRK|].
    destruct (in_ranges d rs); [exact (terminal_one _ c s d r E)|exact TRK].
  - (* EPushLit *) apply terminal_stay.
  - (* EPeek *) destruct (s_stk s) as [|w k]; [exact TRK|].
    apply (terminal_strip _ c s w (s_stk s)). discriminate.
  - (* EPeekSl *) apply (terminal_match c s _ (s_stk s)).
  - (* EPeekAll *) apply (terminal_match c s _ (s_stk s)).
  - (* EPop *) destruct (s_stk s) as [|w k]; [exact TRK|]. apply terminal_strip. discriminate.
  - (* EPopAll *) apply terminal_match.
  - (* EDrop *) destruct (s_stk s); [exact REC|apply terminal_stay].
  - (* ESkipUntil *)
    set (n := match earliest subs (s_rest s) None with Some p => p | None => lenN (s_rest s) end).
    assert (Hn : (n <= N.of_nat (length (s_rest s)))%N).
    { subst n. destruct (earliest subs (s_rest s) None) eqn:E; [|unfold lenN; lia].
      eapply earliest_le; [|exact E]. intros b Hb; discriminate. }
    rewrite <- (N2Nat.id n) at 1. apply (terminal_adv _ c s _ (s_stk s)); [lia|discriminate].
Qed.

(* In a proof by induction on the fuel, with induction hypotheses
     IH  : forall c t s, ... (run g f c t s) ...
     IHk : forall c s, ... (skip_with g (fun c' e' => run g f c' (TEval e')) c s) ...
   `next_run IH IHk R` finds the recursive call that the goal scrutinises first, states as R what
   the hypothesis says of this call, and splits on its result. *)
Ltac next_run IH IHk R :=
  match goal with
  | |- context [match run ?g ?f ?c0 ?t0 ?s0 with _ => _ end] =>
      assert (R := IH c0 t0 s0); destruct (run g f c0 t0 s0) as [?s ?p|?t| |]
  | |- context [match skip_with ?g ?ev ?c0 ?s0 with _ => _ end] =>
      assert (R := IHk c0 s0); destruct (skip_with g ev c0 s0) as [?s ?p|?t| |]
  end.

Section AllSub.
Variable p : expr -> bool.

Fixpoint all_sub (e : expr) : bool :=
  p e &&
  match e with
  | ESeq es | EAlt es =>
      (fix go (l : list expr) : bool := match l with [] => true | x :: l' => all_sub x && go l' end) es
  | EOpt e1 | EStar e1 | EPlus e1 | ERepN e1 _ | ERepMin e1 _ | ERepMax e1 _ | ERepMinMax e1 _ _
  | EAnd e1 | ENot e1 | EGrp e1 _ | EPush e1 => all_sub e1
  | _ => true
  end.

Definition all_list (es : list expr) : bool := forallb all_sub es.

(* the operands of a node; `all_sub_eq`: `all_sub` at a node is the node itself and its operands *)
Definition sub_ok (e : expr) : bool :=
  match e with
  | ESeq es | EAlt es => all_list es
  | EOpt a | EStar a | EPlus a | ERepN a _ | ERepMin a _ | ERepMax a _ | ERepMinMax a _ _
  | EAnd a | ENot a | EGrp a _ | EPush a => all_sub a
  | _ => true
  end.

Lemma all_sub_eq e : all_sub e = p e && sub_ok e.
Proof. destruct e; reflexivity. Qed.

Lemma all_sub_here e : all_sub e = true -> p e = true.
Proof. rewrite all_sub_eq. intros H. apply andb_prop in H. apply H. Qed.

Lemma all_sub_seq es : all_sub (ESeq es) = p (ESeq es) && all_list es.
Proof. apply all_sub_eq. Qed.
Lemma all_sub_alt es : all_sub (EAlt es) = p (EAlt es) && all_list es.
Proof. apply all_sub_eq. Qed.

Lemma all_list_repeat e n : all_sub e = true -> all_list (repeat e n) = true.
Proof. intros H. induction n as [|n IH]; [reflexivity|]. cbn. rewrite H. exact IH. Qed.

Lemma all_list_app a b : all_list (a ++ b) = all_list a && all_list b.
Proof. apply forallb_app. Qed.

Definition all_task (t : task) : bool :=
  match t with
  | TEval e => all_sub e
  | TSeq es | TAlt es => all_list es
  | TStar e => all_sub e
  end.

(* the nodes that unrolling adds are EOpt x and EStar x *)
Lemma all_task_unroll e t :
  (forall x, p (EOpt x) = true) -> (forall x, p (EStar x) = p (EPlus x)) ->
  (forall x n, p (EStar x) = p (ERepMin x n)) ->
  unroll e = Some t -> all_sub e = true -> all_task t = true.
Proof.
  intros Ho Hp Hm U H. rewrite all_sub_eq in H. apply andb_prop in H. destruct H as [Hn H].
  destruct e; inversion U; subst t; clear U; cbn [all_task sub_ok] in *; try exact H.
  - cbn. rewrite Hp, Hn, H. reflexivity.
  - apply all_list_repeat. exact H.
  - rewrite all_list_app, all_list_repeat by exact H. cbn. rewrite (Hm e n), Hn, H. reflexivity.
  - apply all_list_repeat. cbn. rewrite Ho. exact H.
  - rewrite all_list_app, !all_list_repeat; [reflexivity|cbn; rewrite Ho|]; exact H.
Qed.

Definition all_grammar (g : grammar) : bool := forallb (fun r => all_sub (r_body r)) g.

Lemma all_grammar_lookup : forall g n r, all_grammar g = true -> lookup g n = Some r ->
  all_sub (r_body r) = true.
Proof.
  induction g as [|r0 g IH]; intros n r H L; cbn in *; [discriminate|].
  apply andb_prop in H. destruct H as [H1 H2].
  destruct (N.eqb (r_name r0) n); [inversion L; subst; exact H1|eapply IH; eassumption].
Qed.

End AllSub.

Definition not_soi (e : expr) : bool := match e with ESoi => false | _ => true end.

Definition ref_defined (g : grammar) (e : expr) : bool :=
  match e with
  | ERef n _ => match lookup g n with Some _ => true | None => false end
  | _ => true
  end.

(* the skip expression is made of EStar, ESeq and untagged references to WHITESPACE / COMMENT,
   which it only mentions when they are defined *)
Lemma skip_expr_all (p : expr -> bool) g e :
  (forall x, p (EStar x) = true) -> (forall es, p (ESeq es) = true) ->
  (has_ws g = true -> p (ERef WS_ID None) = true) ->
  (has_cm g = true -> p (ERef CM_ID None) = true) ->
  skip_expr g = Some e -> all_sub p e = true.
Proof.
  intros Hs Hq Hw Hc H. unfold skip_expr in H.
  destruct (has_ws g), (has_cm g); inversion H; subst e; cbn;
    rewrite ?Hs, ?Hq, ?Hw, ?Hc by reflexivity; reflexivity.
Qed.
