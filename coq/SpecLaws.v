(* SpecLaws.v — the clauses of pest's matching semantics, read off the reference semantics.
   `evals` is the fuel-independent big-step relation. *)
From Coq Require Import List ZArith Bool Lia.
Import ListNotations.
From PP Require Import Base Syntax Spec SpecMono SpecSyn.

(* Computations indexed by fuel.  `yields` is the fuel-free view (`runs` below is `yields` of
   `run`, written out); `settles` says the same of a computation that need not be stable, and is
   what composes: a call followed by a continuation settles iff the call yields some x and the
   continuation, given x, settles (settles_call).  Unfolding `run` once and applying settles_call
   at each recursive call turns the equation of a construct into a fuel-free characterisation. *)
Definition yields (m : nat -> res) (r : res) : Prop := exists f, m f = r /\ r <> Fuel.
Definition stable (m : nat -> res) : Prop :=
  forall f f' r, m f = r -> r <> Fuel -> f <= f' -> m f' = r.
Definition settles (m : nat -> res) (r : res) : Prop :=
  r <> Fuel /\ exists f0, forall f, f0 <= f -> m f = r.

Lemma yields_det m r1 r2 : stable m -> yields m r1 -> yields m r2 -> r1 = r2.
Proof.
  intros M [f1 [H1 D1]] [f2 [H2 D2]].
  rewrite <- (M f1 (max f1 f2) r1 H1 D1 (Nat.le_max_l _ _)).
  apply (M f2 (max f1 f2) r2 H2 D2 (Nat.le_max_r _ _)).
Qed.

Lemma settles_yields m r : stable m -> (settles m r <-> yields m r).
Proof.
  intros M. split.
  - intros [D [f0 H]]. exists f0. split; [apply H; apply le_n|exact D].
  - intros [f0 [H D]]. split; [exact D|]. exists f0. intros f L. apply (M f0); assumption.
Qed.

Lemma settles_S m r : settles (fun f => m (S f)) r <-> settles m r.
Proof.
  split; intros [D [f0 H]]; (split; [exact D|]).
  - exists (S f0). intros [|f] L; [inversion L|]. apply H. apply le_S_n. exact L.
  - exists f0. intros f L. apply H. apply le_S. exact L.
Qed.

Lemma settles_ret v r : v <> Fuel -> (settles (fun _ => v) r <-> r = v).
Proof.
  intros D. split.
  - intros [_ [f0 H]]. symmetry. apply (H f0). apply le_n.
  - intros ->. split; [exact D|]. exists 0. reflexivity.
Qed.

Lemma settles_bind m (k : nat -> res -> res) r :
  stable m -> (forall f, k f Fuel = Fuel) ->
  (settles (fun f => k f (m f)) r <-> exists x, yields m x /\ settles (fun f => k f x) r).
Proof.
  intros M KF. split.
  - intros [D [f0 H]].
    assert (D0 : m f0 <> Fuel).
    { intros E. specialize (H f0 (le_n _)). rewrite E, KF in H. congruence. }
    exists (m f0). split; [exists f0; split; [reflexivity|exact D0]|]. split; [exact D|].
    exists f0. intros f L. rewrite <- (M f0 f _ eq_refl D0 L). apply H. exact L.
  - intros [x [[f1 [Hx Dx]] [D [f2 H]]]]. split; [exact D|].
    exists (max f1 f2). intros f L. rewrite (M f1 f x Hx Dx) by lia. apply H. lia.
Qed.

(* The shape of every recursive call in `run`: continuations on Ok and on Fail, Err passed on.
   K describes, for each result x of the call, what the continuation settles to. *)
Lemma settles_call m (k1 : nat -> st -> list pair -> res) (k2 : nat -> trk -> res)
  (K : res -> res -> Prop) :
  stable m ->
  (forall s p r, settles (fun f => k1 f s p) r <-> K (Ok s p) r) ->
  (forall t r, settles (fun f => k2 f t) r <-> K (Fail t) r) ->
  (forall r, K Err r <-> r = Err) ->
  forall r,
    settles (fun f => match m f with
                      | Ok s p => k1 f s p | Fail t => k2 f t | Err => Err | Fuel => Fuel
                      end) r <->
    exists x, yields m x /\ K x r.
Proof.
  intros M H1 H2 H3 r.
  rewrite (settles_bind m (fun f x => match x with
                                      | Ok s p => k1 f s p | Fail t => k2 f t | Err => Err | Fuel => Fuel
                                      end) r M (fun _ => eq_refl)).
  assert (E : forall x, yields m x ->
    (settles (fun f => match x with
                       | Ok s p => k1 f s p | Fail t => k2 f t | Err => Err | Fuel => Fuel
                       end) r <-> K x r)).
  { intros [s p|t| |] Hx; [apply H1|apply H2|rewrite H3; apply settles_ret; discriminate|].
    destruct Hx as [_ [_ Dx]]. contradiction Dx. reflexivity. }
  split; intros [x [Hx HK]]; exists x; (split; [exact Hx|]); apply (E x Hx); exact HK.
Qed.

(* settles_call without the results: if the call ends and the continuations, given what it
   returns, do not run out of fuel from some fuel on, neither does the whole. *)
Lemma halts_call (m : nat -> res) (k1 : nat -> st -> list pair -> res) (k2 : nat -> trk -> res) :
  stable m -> (exists f, m f <> Fuel) ->
  (forall f s p, m f = Ok s p -> exists f0, forall f', f0 <= f' -> k1 f' s p <> Fuel) ->
  (forall f t, m f = Fail t -> exists f0, forall f', f0 <= f' -> k2 f' t <> Fuel) ->
  exists f0, forall f', f0 <= f' ->
    match m f' with Ok s p => k1 f' s p | Fail t => k2 f' t | Err => Err | Fuel => Fuel end <> Fuel.
Proof.
  intros M [f H] H1 H2. destruct (m f) as [s p|t| |] eqn:E; [| | |congruence].
  - destruct (H1 f s p E) as [f0 K]. exists (max f f0). intros f' L.
    rewrite (M f f' _ E) by (discriminate || lia). apply K. lia.
  - destruct (H2 f t E) as [f0 K]. exists (max f f0). intros f' L.
    rewrite (M f f' _ E) by (discriminate || lia). apply K. lia.
  - exists f. intros f' L. rewrite (M f f' _ E) by (discriminate || exact L). discriminate.
Qed.

Section Laws.
Variable g : grammar.

Definition runs (c : ctx) (t : task) (s : st) (r : res) : Prop :=
  exists f, run g f c t s = r /\ r <> Fuel.
Definition evals (c : ctx) (e : expr) (s : st) (r : res) : Prop := runs c (TEval e) s r.

Lemma run_stable c t s : stable (fun f => run g f c t s).
Proof. intros f f' r. apply run_mono. Qed.

Lemma skip_stable c s : stable (fun f => skip_with g (fun c' e' => run g f c' (TEval e')) c s).
Proof. intros f f' r H D L. eapply skip_mono; [apply mono_all|exact H|exact D|exact L]. Qed.

Lemma halts_from c t s : (exists f, run g f c t s <> Fuel) ->
  exists f0, forall f, f0 <= f -> run g f c t s <> Fuel.
Proof.
  intros [f0 H]. exists f0. intros f L. rewrite (run_stable c t s f0 f _ eq_refl H L). exact H.
Qed.

Lemma halts_step c t s : (exists f0, forall f, f0 <= f -> run g (S f) c t s <> Fuel) ->
  exists f, run g f c t s <> Fuel.
Proof. intros [f0 H]. exists (S f0). apply H. apply le_n. Qed.

Lemma runs_det c t s r1 r2 : runs c t s r1 -> runs c t s r2 -> r1 = r2.
Proof. apply yields_det. apply run_stable. Qed.

Lemma runs_settles c t s r : runs c t s r <-> settles (fun f => run g (S f) c t s) r.
Proof.
  rewrite (settles_S (fun f => run g f c t s)). symmetry. apply settles_yields. apply run_stable.
Qed.

Lemma runs_tail_call c t s c' t' s' r : (forall f, run g (S f) c t s = run g f c' t' s') ->
  (runs c t s r <-> runs c' t' s' r).
Proof.
  intros E. split; intros [f [H D]].
  - destruct f as [|f]; [cbn in H; congruence|]. exists f. rewrite <- E. split; assumption.
  - exists (S f). rewrite E. split; assumption.
Qed.

Lemma runs_step c t t' s r : (forall f, run g (S f) c t s = run g f c t' s) ->
  (runs c t s r <-> runs c t' s r).
Proof. apply runs_tail_call. Qed.

(* C03: sequences, choices, repetitions *)

Lemma evals_unroll c e t s r : unroll e = Some t -> (evals c e s r <-> runs c t s r).
Proof. intros U. apply runs_step. intros f. apply run_unroll. exact U. Qed.

Lemma seq_is_its_task c es s r : evals c (ESeq es) s r <-> runs c (TSeq es) s r.
Proof. apply evals_unroll. reflexivity. Qed.
Lemma alt_is_its_task c es s r : evals c (EAlt es) s r <-> runs c (TAlt es) s r.
Proof. apply evals_unroll. reflexivity. Qed.

(* bounded repetitions ARE their unrolled sequences *)
Theorem plus_unrolled c e s r : evals c (EPlus e) s r <-> evals c (ESeq [e; EStar e]) s r.
Proof. rewrite seq_is_its_task. apply evals_unroll. reflexivity. Qed.
Theorem repn_unrolled c e n s r : evals c (ERepN e n) s r <-> evals c (ESeq (repeat e n)) s r.
Proof. rewrite seq_is_its_task. apply evals_unroll. reflexivity. Qed.
Theorem repmin_unrolled c e n s r :
  evals c (ERepMin e n) s r <-> evals c (ESeq (repeat e n ++ [EStar e])) s r.
Proof. rewrite seq_is_its_task. apply evals_unroll. reflexivity. Qed.
Theorem repmax_unrolled c e n s r :
  evals c (ERepMax e n) s r <-> evals c (ESeq (repeat (EOpt e) n)) s r.
Proof. rewrite seq_is_its_task. apply evals_unroll. reflexivity. Qed.
Theorem repminmax_unrolled c e m n s r :
  evals c (ERepMinMax e m n) s r <-> evals c (ESeq (repeat e m ++ repeat (EOpt e) (n - m))) s r.
Proof. rewrite seq_is_its_task. apply evals_unroll. reflexivity. Qed.

Lemma runs_alt_nil c s r : runs c (TAlt []) s r <-> r = Fail (s_trk s).
Proof. rewrite runs_settles. cbn [run]. apply settles_ret. discriminate. Qed.

Lemma runs_alt_cons c e1 es s r :
  runs c (TAlt (e1 :: es)) s r <->
  exists x, evals c e1 s x /\
    match x with
    | Fail t => runs c (TAlt es) (set_trk s t) r
    | w => r = w
    end.
Proof.
  rewrite runs_settles. cbn [run]. revert r.
  apply settles_call; [apply run_stable|intros; apply settles_ret; discriminate| |reflexivity].
  intros t r. apply settles_yields. apply run_stable.
Qed.

(* ordered choice commits to the first alternative that matches; a failed alternative leaves no
   trace: the next one starts from the same position, stack and pending tags (only the
   furthest-failure record is kept) *)
Theorem choice_commits c e1 es s s1 p :
  evals c e1 s (Ok s1 p) -> evals c (EAlt (e1 :: es)) s (Ok s1 p).
Proof.
  intros H. apply alt_is_its_task. apply runs_alt_cons. exists (Ok s1 p). split; [exact H|reflexivity].
Qed.

Theorem choice_backtracks c e1 es s t r :
  evals c e1 s (Fail t) -> evals c (EAlt es) (set_trk s t) r -> evals c (EAlt (e1 :: es)) s r.
Proof.
  intros H1 H2. apply alt_is_its_task. apply runs_alt_cons. exists (Fail t). split; [exact H1|].
  apply alt_is_its_task. exact H2.
Qed.

Theorem choice_empty_fails c s : evals c (EAlt []) s (Fail (s_trk s)).
Proof. apply alt_is_its_task. apply runs_alt_nil. reflexivity. Qed.

(* optional never fails and keeps nothing of a failed attempt *)
Theorem opt_of_failure c e s t : evals c e s (Fail t) -> evals c (EOpt e) s (Ok (set_trk s t) []).
Proof. intros [f [H D]]. exists (S f). split; [cbn [run]; rewrite H; reflexivity|discriminate]. Qed.
Theorem opt_of_success c e s s1 p : evals c e s (Ok s1 p) -> evals c (EOpt e) s (Ok s1 p).
Proof. intros [f [H D]]. exists (S f). split; [cbn [run]; rewrite H; reflexivity|discriminate]. Qed.

(* predicates consume nothing, change nothing and contribute no pairs *)
Theorem and_consumes_nothing c e s s1 p :
  evals c (EAnd e) s (Ok s1 p) ->
  p = [] /\ s_pos s1 = s_pos s /\ s_rest s1 = s_rest s /\ s_stk s1 = s_stk s /\ s_tags s1 = s_tags s.
Proof.
  intros [f [H D]]. destruct f as [|f]; [discriminate|]. cbn [run] in H.
  destruct (run g f c (TEval e) s); inversion H; subst. repeat split; reflexivity.
Qed.

Theorem not_consumes_nothing c e s s1 p :
  evals c (ENot e) s (Ok s1 p) ->
  p = [] /\ s_pos s1 = s_pos s /\ s_rest s1 = s_rest s /\ s_stk s1 = s_stk s /\ s_tags s1 = s_tags s.
Proof.
  intros [f [H D]]. destruct f as [|f]; [discriminate|]. cbn [run] in H.
  destruct (run g f (neg_ctx c) (TEval e) s); inversion H; subst. repeat split; reflexivity.
Qed.

Theorem not_inverts c e s :
  (forall s1 p, evals (neg_ctx c) e s (Ok s1 p) -> exists t, evals c (ENot e) s (Fail t)) /\
  (forall t, evals (neg_ctx c) e s (Fail t) -> evals c (ENot e) s (Ok (set_trk s t) [])).
Proof.
  split.
  - intros s1 p [f [H D]]. eexists. exists (S f). split; [cbn [run]; rewrite H; reflexivity|discriminate].
  - intros t [f [H D]]. exists (S f). split; [cbn [run]; rewrite H; reflexivity|discriminate].
Qed.

(* the loop of e* stops exactly where (after the implicit trivia) e fails, and the trivia before
   the failing attempt is not consumed *)
Lemma star_loop_stops : forall f c e s s' ps,
  run g f c (TStar e) s = Ok s' ps ->
  exists s0 s2 pw t,
    s' = set_trk s0 t /\
    runs c (TStar e) s0 (Ok s' []) /\
    skip_with g (fun c' e' => run g (pred f) c' (TEval e')) c s0 = Ok s2 pw /\
    runs c (TEval e) s2 (Fail t).
Proof.
  induction f as [|f IH]; intros c e s s' ps H; [discriminate|]. cbn [run] in H.
  destruct (skip_with g _ c s) as [s2 pw|t| |] eqn:EK; try discriminate.
  destruct (run g f c (TEval e) s2) as [s3 p3|t| |] eqn:E2; try discriminate.
  - destruct (run g f c (TStar e) s3) as [s4 p4|t| |] eqn:E3; try discriminate.
    inversion H; subst. destruct (IH c e s3 s' p4 E3) as [s0 [s2' [pw' [t [A [B [C D]]]]]]].
    exists s0, s2', pw', t. repeat split; try assumption.
    cbn [pred]. apply (skip_stable c s0 (pred f) f _ C); [discriminate|apply Nat.le_pred_l].
  - inversion H; subst. exists s, s2, pw, t. repeat split.
    + exists (S f). split; [cbn [run]; rewrite EK, E2; reflexivity|discriminate].
    + cbn [pred]. exact EK.
    + exists f. split; [exact E2|discriminate].
Qed.

(* C04: implicit trivia and atomicity *)

(* trivia goes between two elements of a sequence, never after the last one *)
Theorem seq_trivia_placement f c e1 e2 es s :
  run g (S f) c (TSeq (e1 :: e2 :: es)) s =
  match run g f c (TEval e1) s with
  | Ok s1 p1 =>
      match skip_with g (fun c' e' => run g f c' (TEval e')) c s1 with
      | Ok s2 pw =>
          match run g f c (TSeq (e2 :: es)) s2 with
          | Ok s3 p3 => Ok s3 (p1 ++ pw ++ p3)
          | x => x
          end
      | x => x
      end
  | x => x
  end.
Proof. reflexivity. Qed.

Theorem seq_last_no_trivia f c e1 s : run g (S f) c (TSeq [e1]) s = run g f c (TEval e1) s.
Proof. cbn [run]. destruct (run g f c (TEval e1) s); reflexivity. Qed.

(* no implicit trivia inside atomic and compound-atomic contexts *)
Theorem atomic_no_trivia ev c s : c_atom c <> NonAtomic -> skip_with g ev c s = Ok s [].
Proof. intros H. unfold skip_with. destruct (c_atom c); [congruence|reflexivity|reflexivity]. Qed.

Theorem no_trivia_rules ev c s : has_ws g = false -> has_cm g = false -> skip_with g ev c s = Ok s [].
Proof.
  intros H1 H2. unfold skip_with, skip_expr. rewrite H1, H2. destruct (c_atom c); reflexivity.
Qed.

Theorem rule_atomicity c r :
  body_atom c r =
  match r_kind r with
  | KCompound => Compound
  | KAtomic => Atomic
  | KNonAtomic => if is_trivia_name (r_name r) then Atomic else NonAtomic
  | KNormal => if is_trivia_name (r_name r) then Atomic else c_atom c
  end.
Proof. reflexivity. Qed.

(* an atomic context hides the pairs of normal and atomic rules, never those of $ and ! rules *)
Theorem atomic_hides c r : c_atom c = Atomic -> (r_kind r = KNormal \/ r_kind r = KAtomic) ->
  visible c r = false.
Proof. intros H [K|K]; unfold visible; rewrite H, K; apply andb_false_r. Qed.

Theorem compound_nonatomic_visible c r : r_silent r = false ->
  (r_kind r = KCompound \/ r_kind r = KNonAtomic) -> visible c r = true.
Proof. intros S [K|K]; unfold visible; rewrite S, K; reflexivity. Qed.

(* C05: stack operations *)

Theorem push_pushes_matched_text c e s s1 p :
  evals c e s (Ok s1 p) ->
  evals c (EPush e) s
    (Ok (set_stk s1 (firstn (N.to_nat (s_pos s1 - s_pos s)) (s_rest s) :: s_stk s1)) p).
Proof. intros [f [H D]]. exists (S f). split; [cbn [run]; rewrite H; reflexivity|discriminate]. Qed.

Theorem push_literal_always c w s : evals c (EPushLit w) s (Ok (set_stk s (w :: s_stk s)) []).
Proof. exists 1. split; [reflexivity|discriminate]. Qed.

Theorem peek_matches_top c s w k r :
  s_stk s = w :: k -> strip_prefix w (s_rest s) = Some r ->
  evals c EPeek s (Ok (adv s (lenN w) r) []).
Proof. intros E1 E2. exists 1. split; [cbn [run]; rewrite E1, E2; reflexivity|discriminate]. Qed.

Theorem pop_matches_and_removes c s w k r :
  s_stk s = w :: k -> strip_prefix w (s_rest s) = Some r ->
  evals c EPop s (Ok (set_stk (adv s (lenN w) r) k) []).
Proof. intros E1 E2. exists 1. split; [cbn [run]; rewrite E1, E2; reflexivity|discriminate]. Qed.

Theorem drop_removes_or_fails c s :
  match s_stk s with
  | [] => exists t, evals c EDrop s (Fail t)
  | _ :: k => evals c EDrop s (Ok (set_stk s k) [])
  end.
Proof.
  destruct (s_stk s) eqn:E.
  - eexists. exists 1. split; [cbn [run]; rewrite E; reflexivity|discriminate].
  - exists 1. split; [cbn [run]; rewrite E; reflexivity|discriminate].
Qed.

Theorem pop_all_empties_on_success c s s1 p :
  evals c EPopAll s (Ok s1 p) -> s_stk s1 = [] /\ p = [].
Proof.
  intros [f [H D]]. destruct f as [|f]; [discriminate|]. cbn [run] in H.
  destruct (match_all _ _ _) as [[r n]|]; inversion H; subst. split; reflexivity.
Qed.

(* the entries are matched top to bottom (PEEK_ALL, POP_ALL) or, for a slice, bottom to top *)
Theorem peek_all_top_to_bottom c s s1 p :
  evals c EPeekAll s (Ok s1 p) ->
  exists r n, match_all (s_stk s) (s_rest s) 0 = Some (r, n) /\ s1 = adv s n r /\ p = [].
Proof.
  intros [f [H D]]. destruct f as [|f]; [discriminate|]. cbn [run] in H.
  destruct (match_all _ _ _) as [[r n]|] eqn:E; inversion H; subst. exists r, n. repeat split.
Qed.

Theorem peek_slice_bottom_to_top c a b s s1 p :
  evals c (EPeekSl a b) s (Ok s1 p) ->
  exists r n, match_all (py_slice (rev (s_stk s)) a b) (s_rest s) 0 = Some (r, n)
              /\ s1 = adv s n r /\ p = [].
Proof.
  intros [f [H D]]. destruct f as [|f]; [discriminate|]. cbn [run] in H.
  destruct (match_all _ _ _) as [[r n]|] eqn:E; inversion H; subst. exists r, n. repeat split.
Qed.

Theorem stack_ops_total c e s :
  match e with EPeek | EPop | EDrop | EPeekAll | EPopAll | EPeekSl _ _ | EPushLit _ => True | _ => False end ->
  exists r, evals c e s r /\ r <> Err.
Proof.
  intros He. assert (T : terminal e = true) by (destruct e; try contradiction; reflexivity).
  assert (R := run_terminal g e T 0 c s). exists (run g 1 c (TEval e) s).
  split; [exists 1; split; [reflexivity|]|]; intros E; rewrite E in R; exact R.
Qed.

End Laws.
