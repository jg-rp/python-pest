(* The Pratt parser builds exactly the canonical trees: soundness (yield and
   canonicity of what it builds), the round trip from a canonical tree through its yield,
   uniqueness, and complete consumption of well-formed streams. *)
From Coq Require Import List Arith Lia.
Import ListNotations.
From PP Require Import Pratt.

Section P.
Variable tb : table.

Theorem prun_mono : forall f f' t r, prun tb f t = Some r -> f <= f' -> prun tb f' t = Some r.
Proof.
  induction f as [|f IH]; intros f' t r H Hle.
  - cbn in H. discriminate.
  - destruct f' as [|f']; [lia|].
    assert (Hle' : f <= f') by lia.
    cbn [prun] in *.
    destruct t as [ts m | lhs ts m].
    + destruct ts as [|[a|o|o|o] ts']; try discriminate.
      * eapply IH; eauto.
      * destruct (prun tb f (PExpr ts' (pre tb o))) as [[rhs rest]|] eqn:E; try discriminate.
        rewrite (IH _ _ _ E Hle'). eapply IH; eauto.
    + destruct ts as [|[a|o|o|o] ts']; auto.
      * destruct (post tb o <? m); auto.
      * destruct (fst (inf tb o) <? m); auto.
        destruct (prun tb f (PExpr ts' (rprec tb o))) as [[rhs rest]|] eqn:E; try discriminate.
        rewrite (IH _ _ _ E Hle'). eapply IH; eauto.
Qed.

Lemma prun_both f1 f2 t1 t2 r1 r2 : prun tb f1 t1 = Some r1 -> prun tb f2 t2 = Some r2 ->
  prun tb (f1 + f2) t1 = Some r1 /\ prun tb (f1 + f2) t2 = Some r2.
Proof. intros E1 E2. split; eapply prun_mono; try eassumption; lia. Qed.

(* what the precedence of an operator at the head of the stream satisfies *)
Definition heads (P : nat -> Prop) (ts : list tok) : Prop :=
  match ts with
  | KPost o :: _ => P (post tb o)
  | KInf o :: _ => P (fst (inf tb o))
  | _ => True
  end.

Lemma heads_clauses (P : nat -> Prop) ts : heads P ts <->
  (forall o ts', ts = KPost o :: ts' -> P (post tb o)) /\
  (forall o ts', ts = KInf o :: ts' -> P (fst (inf tb o))).
Proof.
  split.
  - intros H. split; intros o ts' ->; exact H.
  - intros [H1 H2]. destruct ts as [|[a|o|o|o] ts]; cbn [heads]; eauto.
Qed.

Lemma heads_cases (P : nat -> Prop) ts : heads P ts <->
  ts = [] \/ (exists a r, ts = KPrim a :: r) \/ (exists o r, ts = KPre o :: r) \/
  (exists o r, ts = KPost o :: r /\ P (post tb o)) \/
  (exists o r, ts = KInf o :: r /\ P (fst (inf tb o))).
Proof.
  split.
  - destruct ts as [|[a|o|o|o] ts]; cbn [heads]; intros H; eauto 10.
  - intros [->|[(a & r & ->)|[(o & r & ->)|[(o & r & -> & H)|(o & r & -> & H)]]]]; try exact I; exact H.
Qed.

(* every operator at the head of ts is below the right threshold of t *)
Definition hdbelow (t : tree) (ts : list tok) : Prop :=
  (forall o ts', ts = KPost o :: ts' -> below (post tb o) (rthresh tb t)) /\
  (forall o ts', ts = KInf o :: ts' -> below (fst (inf tb o)) (rthresh tb t)).

Definition stops (m : nat) (t : tree) (rest : list tok) : Prop :=
  rest = [] \/ (exists a r, rest = KPrim a :: r) \/ (exists o r, rest = KPre o :: r) \/
  (exists o r, rest = KPost o :: r /\ post tb o < m) \/
  (exists o r, rest = KInf o :: r /\ fst (inf tb o) < m).

Definition nextok (m : nat) (t : tree) (rest : list tok) : Prop :=
  rest = [] \/ (exists a r, rest = KPrim a :: r) \/ (exists o r, rest = KPre o :: r) \/
  (exists o r, rest = KPost o :: r /\ post tb o < m /\ below (post tb o) (rthresh tb t)) \/
  (exists o r, rest = KInf o :: r /\ fst (inf tb o) < m /\ below (fst (inf tb o)) (rthresh tb t)).

Lemma hdbelow_heads t ts : hdbelow t ts <-> heads (fun q => below q (rthresh tb t)) ts.
Proof. symmetry. apply heads_clauses. Qed.

Lemma stops_heads m t ts : stops m t ts <-> heads (fun q => q < m) ts.
Proof. symmetry. apply heads_cases. Qed.

Lemma nextok_heads m t ts : nextok m t ts <-> heads (fun q => q < m /\ below q (rthresh tb t)) ts.
Proof. symmetry. apply (heads_cases (fun q => q < m /\ below q (rthresh tb t))). Qed.

Lemma nextok_split m t ts : nextok m t ts <-> hdbelow t ts /\ heads (fun q => q < m) ts.
Proof.
  rewrite nextok_heads, hdbelow_heads. destruct ts as [|[a|o|o|o] ts]; cbn [heads]; tauto.
Qed.

Lemma hdbelow_closed t ts : rthresh tb t = None -> hdbelow t ts.
Proof. intros E. unfold hdbelow. rewrite E. split; intros; exact I. Qed.

Lemma below_min q p th :
  below q (Some (match th with Some x => Nat.min p x | None => p end)) <-> q < p /\ below q th.
Proof. destruct th; cbn [below]; lia. Qed.

(* t ends in an operand r parsed at level p: what t leaves at the head of the stream is what a
   call at level p leaves after r *)
Lemma hdbelow_operand t p r ts :
  rthresh tb t = Some (match rthresh tb r with Some x => Nat.min p x | None => p end) ->
  (hdbelow t ts <-> nextok p r ts).
Proof.
  intros E. rewrite hdbelow_heads, nextok_heads, E.
  destruct ts as [|[a|o|o|o] ts]; cbn [heads]; try tauto; apply below_min.
Qed.

(* the calls of prun as a relation, without fuel *)
Inductive run : ptask -> tree * list tok -> Prop :=
| RPrim a ts m r : run (PLoop (TPrim a) ts m) r -> run (PExpr (KPrim a :: ts) m) r
| RPre o ts m rhs rest r : run (PExpr ts (pre tb o)) (rhs, rest) ->
    run (PLoop (TPre o rhs) rest m) r -> run (PExpr (KPre o :: ts) m) r
| RStop l ts m : heads (fun q => q < m) ts -> run (PLoop l ts m) (l, ts)
| RPost l o ts m r : m <= post tb o ->
    run (PLoop (TPost l o) ts m) r -> run (PLoop l (KPost o :: ts) m) r
| RIn l o ts m rhs rest r : m <= fst (inf tb o) -> run (PExpr ts (rprec tb o)) (rhs, rest) ->
    run (PLoop (TIn l o rhs) rest m) r -> run (PLoop l (KInf o :: ts) m) r.

Lemma prun_run : forall f t r, prun tb f t = Some r -> run t r.
Proof.
  induction f as [|f IH]; intros t r H; [discriminate|]. cbn [prun] in H.
  destruct t as [[|[a|o|o|o] ts] m | l [|[a|o|o|o] ts] m]; try discriminate;
    try (injection H as <-; apply RStop; exact I).
  - apply RPrim, IH, H.
  - destruct (prun tb f (PExpr ts (pre tb o))) as [[rhs rest]|] eqn:E; [|discriminate].
    eapply RPre; apply IH; eassumption.
  - destruct (post tb o <? m) eqn:L.
    + injection H as <-. apply RStop, Nat.ltb_lt, L.
    + apply RPost; [apply Nat.ltb_ge, L|apply IH, H].
  - destruct (fst (inf tb o) <? m) eqn:L.
    + injection H as <-. apply RStop, Nat.ltb_lt, L.
    + destruct (prun tb f (PExpr ts (rprec tb o))) as [[rhs rest]|] eqn:E; [|discriminate].
      eapply RIn; [apply Nat.ltb_ge, L|apply IH; eassumption..].
Qed.

Lemma run_prun t r : run t r -> exists f, prun tb f t = Some r.
Proof.
  induction 1 as [a ts m r _ [f E] | o ts m rhs rest r _ [f1 E1] _ [f2 E2] | l ts m H
                 | l o ts m r H _ [f E] | l o ts m rhs rest r H _ [f1 E1] _ [f2 E2]].
  - exists (S f). exact E.
  - destruct (prun_both _ _ _ _ _ _ E1 E2) as [E1' E2'].
    exists (S (f1 + f2)). cbn [prun]. rewrite E1'. exact E2'.
  - exists 1. cbn [prun]. destruct ts as [|[a|o|o|o] ts]; try reflexivity;
      apply Nat.ltb_lt in H; rewrite H; reflexivity.
  - apply Nat.ltb_ge in H. exists (S f). cbn [prun]. rewrite H. exact E.
  - destruct (prun_both _ _ _ _ _ _ E1 E2) as [E1' E2']. apply Nat.ltb_ge in H.
    exists (S (f1 + f2)). cbn [prun]. rewrite H, E1'. exact E2'.
Qed.

Lemma run_yield t r : run t r ->
  yield (fst r) ++ snd r = match t with PExpr ts _ => ts | PLoop l ts _ => yield l ++ ts end.
Proof.
  induction 1 as [a ts m r _ IH | o ts m rhs rest r _ IH1 _ IH2 | l ts m H
                 | l o ts m r H _ IH | l o ts m rhs rest r H _ IH1 _ IH2]; cbn [fst snd] in *.
  - exact IH.
  - rewrite IH2, <- IH1. reflexivity.
  - reflexivity.
  - rewrite IH. cbn [yield]. rewrite <- app_assoc. reflexivity.
  - rewrite IH2, <- IH1. cbn [yield]. rewrite <- app_assoc. reflexivity.
Qed.

Theorem parse_expr_yield : forall f ts m t rest,
  parse_expr tb f ts m = Some (t, rest) -> yield t ++ rest = ts.
Proof.
  intros f ts m t rest H. exact (run_yield _ _ (prun_run _ _ _ H)).
Qed.

Theorem loop_yield : forall f l ts m t rest,
  loop tb f l ts m = Some (t, rest) -> yield t ++ rest = yield l ++ ts.
Proof.
  intros f l ts m t rest H. exact (run_yield _ _ (prun_run _ _ _ H)).
Qed.

Lemma run_canon t r : run t r ->
  match t with
  | PExpr ts m => canon tb m (fst r) /\ nextok m (fst r) (snd r)
  | PLoop l ts m => canon tb m l -> hdbelow l ts -> canon tb m (fst r) /\ nextok m (fst r) (snd r)
  end.
Proof.
  induction 1 as [a ts m r _ IH | o ts m rhs rest r _ [IHc IHn] _ IH | l ts m H
                 | l o ts m r H _ IH | l o ts m rhs rest r H _ [IHc IHn] _ IH]; cbn [fst snd] in *.
  - apply IH; [constructor|apply hdbelow_closed; reflexivity].
  - apply IH; [constructor; exact IHc|].
    apply (hdbelow_operand _ (pre tb o) rhs); [reflexivity|exact IHn].
  - intros Hc Hb. split; [exact Hc|]. apply nextok_split. split; assumption.
  - intros Hc Hb. apply hdbelow_heads in Hb. cbn [heads] in Hb.
    apply IH; [constructor; assumption|apply hdbelow_closed; reflexivity].
  - intros Hc Hb. apply hdbelow_heads in Hb. cbn [heads] in Hb.
    apply IH; [constructor; assumption|].
    apply (hdbelow_operand _ (rprec tb o) rhs); [reflexivity|exact IHn].
Qed.

Theorem parse_expr_canon : forall f ts m t rest,
  parse_expr tb f ts m = Some (t, rest) -> canon tb m t.
Proof.
  intros f ts m t rest H. exact (proj1 (run_canon _ _ (prun_run _ _ _ H))).
Qed.

Theorem parse_expr_nextok : forall f ts m t rest,
  parse_expr tb f ts m = Some (t, rest) -> nextok m t rest.
Proof.
  intros f ts m t rest H. exact (proj2 (run_canon _ _ (prun_run _ _ _ H))).
Qed.

Theorem loop_canon : forall f l ts m t rest,
  canon tb m l -> hdbelow l ts ->
  loop tb f l ts m = Some (t, rest) -> canon tb m t.
Proof.
  intros f l ts m t rest Hc Hb H. exact (proj1 (run_canon _ _ (prun_run _ _ _ H) Hc Hb)).
Qed.

Theorem parse_expr_stops : forall f ts m t rest,
  parse_expr tb f ts m = Some (t, rest) -> stops m t rest.
Proof.
  intros f ts m t rest H. apply parse_expr_nextok, nextok_split in H.
  apply stops_heads. exact (proj2 H).
Qed.

(* Parsing [yield t ++ rest] at level m reaches the loop state (t, rest). *)
Lemma reach : forall t m rest r, canon tb m t -> hdbelow t rest ->
  run (PLoop t rest m) r -> run (PExpr (yield t ++ rest) m) r.
Proof.
  induction t as [a | o t IHt | l IHl o | l IHl o t IHt]; intros m rest r Hc Hb H;
    inversion Hc; subst; cbn [yield].
  - apply RPrim. exact H.
  - apply (hdbelow_operand _ (pre tb o) t), nextok_split in Hb; [|reflexivity]. destruct Hb as [Hb Hlt].
    eapply RPre; [|exact H]. apply IHt; [assumption|exact Hb|apply RStop, Hlt].
  - rewrite <- app_assoc. apply IHl; [assumption|apply hdbelow_heads; assumption|].
    apply RPost; assumption.
  - apply (hdbelow_operand _ (rprec tb o) t), nextok_split in Hb; [|reflexivity]. destruct Hb as [Hb Hlt].
    rewrite <- app_assoc. apply IHl; [assumption|apply hdbelow_heads; assumption|].
    eapply RIn; [assumption| |exact H]. apply IHt; [assumption|exact Hb|apply RStop, Hlt].
Qed.

Theorem roundtrip : forall t m rest, canon tb m t -> nextok m t rest ->
  exists f, parse_expr tb f (yield t ++ rest) m = Some (t, rest).
Proof.
  intros t m rest Hc Hn. apply nextok_split in Hn. destruct Hn as [Hb Hlt].
  apply run_prun, reach; [exact Hc|exact Hb|apply RStop, Hlt].
Qed.

Theorem canon_unique : forall t1 t2 m,
  canon tb m t1 -> canon tb m t2 -> yield t1 = yield t2 -> t1 = t2.
Proof.
  intros t1 t2 m H1 H2 Hy.
  destruct (roundtrip t1 m [] H1) as [f1 E1]. { left. reflexivity. }
  destruct (roundtrip t2 m [] H2) as [f2 E2]. { left. reflexivity. }
  rewrite Hy in E1. destruct (prun_both _ _ _ _ _ _ E1 E2) as [E1' E2'].
  rewrite E1' in E2'. inversion E2'. reflexivity.
Qed.

(* wfs: an operand is expected;  wfo: an operand has just been completed.
   wfs = (KPre* KPrim KPost* ) (KInf (KPre* KPrim KPost* ))*                *)
Inductive wfs : list tok -> Prop :=
| WPrim a ts : wfo ts -> wfs (KPrim a :: ts)
| WPre o ts : wfs ts -> wfs (KPre o :: ts)
with wfo : list tok -> Prop :=
| WEnd : wfo []
| WPost o ts : wfo ts -> wfo (KPost o :: ts)
| WInf o ts : wfs ts -> wfo (KInf o :: ts).

Lemma wf_runs : forall n ts, length ts < n ->
  (wfs ts -> forall m, exists t rest,
     run (PExpr ts m) (t, rest) /\ wfo rest /\ length rest <= length ts) /\
  (wfo ts -> forall l m, exists t rest,
     run (PLoop l ts m) (t, rest) /\ wfo rest /\ length rest <= length ts).
Proof.
  induction n as [|n IH]; intros ts Hlen; [lia|].
  split.
  - intros Hw m. inversion Hw as [a ts' Hw' | o ts' Hw']; subst; cbn [length] in *.
    + destruct (proj2 (IH ts' ltac:(lia)) Hw' (TPrim a) m) as (t & rest & E & Hr & Hl).
      exists t, rest. repeat split; [apply RPrim, E|exact Hr|lia].
    + destruct (proj1 (IH ts' ltac:(lia)) Hw' (pre tb o)) as (rhs & rest1 & E1 & Hr1 & Hl1).
      destruct (proj2 (IH rest1 ltac:(lia)) Hr1 (TPre o rhs) m) as (t & rest & E2 & Hr & Hl).
      exists t, rest. repeat split; [exact (RPre _ _ _ _ _ _ E1 E2)|exact Hr|lia].
  - intros Hw l m. inversion Hw as [| o ts' Hw' | o ts' Hw']; subst; cbn [length] in *.
    + exists l, []. repeat split; [apply RStop; exact I|constructor|apply le_n].
    + destruct (Nat.lt_ge_cases (post tb o) m) as [L|L].
      * exists l, (KPost o :: ts'). repeat split; [apply RStop, L|exact Hw|apply le_n].
      * destruct (proj2 (IH ts' ltac:(lia)) Hw' (TPost l o) m) as (t & rest & E & Hr & Hl).
        exists t, rest. repeat split; [apply RPost; assumption|exact Hr|lia].
    + destruct (Nat.lt_ge_cases (fst (inf tb o)) m) as [L|L].
      * exists l, (KInf o :: ts'). repeat split; [apply RStop, L|exact Hw|apply le_n].
      * destruct (proj1 (IH ts' ltac:(lia)) Hw' (rprec tb o)) as (rhs & rest1 & E1 & Hr1 & Hl1).
        destruct (proj2 (IH rest1 ltac:(lia)) Hr1 (TIn l o rhs) m) as (t & rest & E2 & Hr & Hl).
        exists t, rest. repeat split; [exact (RIn _ _ _ _ _ _ _ L E1 E2)|exact Hr|lia].
Qed.

Theorem consumes_all : forall ts, wfs ts -> exists f t, parse_expr tb f ts 0 = Some (t, []).
Proof.
  intros ts Hw.
  destruct (proj1 (wf_runs (S (length ts)) ts ltac:(lia)) Hw 0) as (t & rest & E & Hr & _).
  destruct (run_prun _ _ E) as [f Ef]. exists f, t.
  pose proof (parse_expr_stops f ts 0 t rest Ef) as Hs. apply stops_heads in Hs.
  inversion Hr; subst; cbn [heads] in Hs; [exact Ef|lia|lia].
Qed.

End P.

Print Assumptions prun_mono.
Print Assumptions roundtrip.
Print Assumptions canon_unique.
Print Assumptions parse_expr_canon.
Print Assumptions parse_expr_yield.
Print Assumptions consumes_all.
