(* LineColProof.v — Position.line_col agrees with the text: for texts whose only line breaks
   are \n, line_col t p = (1 + number of line breaks before p, 1 + distance from the last
   line break), for every 0 <= p <= len t. *)
From Coq Require Import List NArith Arith Lia.
Import ListNotations.
From PP Require Import Base LineCol.

(* splitting an nl-only text: cur is the part of the current line scanned already (reversed),
   t what is left, ls the lines. In scan_other, c <> \n follows from is_break c = false; it is
   there because it is the test walk makes. *)
Inductive scan : text -> text -> list text -> Prop :=
| scan_end : scan [] [] []
| scan_last x cur : scan (x :: cur) [] [rev (x :: cur)]
| scan_nl cur t ls : scan [] t ls -> scan cur (10%N :: t) (rev (10%N :: cur) :: ls)
| scan_other c cur t ls : is_break c = false -> N.eqb c 10 = false ->
    scan (c :: cur) t ls -> scan cur (c :: t) ls.

Lemma scan_split : forall t cur, nl_only t = true -> scan cur t (split_aux cur t).
Proof.
  induction t as [|c t IH]; intros cur Hn.
  - destruct cur; constructor.
  - unfold nl_only in Hn. cbn [forallb] in Hn. apply andb_prop in Hn. destruct Hn as [Hc Hn].
    destruct (N.eqb_spec c 10) as [->|Hc10].
    + apply scan_nl, IH, Hn.
    + cbn [split_aux]. destruct (is_break c) eqn:Hb; [discriminate|].
      apply scan_other; [exact Hb|apply N.eqb_neq, Hc10|apply IH, Hn].
Qed.

Lemma walk_nil p line col : walk [] p line col = (line, col).
Proof. destruct p; reflexivity. Qed.

Lemma lc_inside cur t ls : scan cur t ls -> forall pos start i,
  start <= pos < start + length cur -> lc_loop ls pos start i = Some (i + 1, pos - start + 1).
Proof.
  induction 1 as [|x cur|cur t ls _ _|c cur t ls _ _ _ IH]; intros pos start i [Hs Hp]; cbn [lc_loop].
  - cbn [length] in Hp. lia.
  - rewrite rev_length. apply Nat.ltb_lt in Hp. rewrite Hp. reflexivity.
  - rewrite rev_length. cbn [length]. destruct (Nat.ltb_spec pos (start + S (length cur))); [reflexivity|lia].
  - apply IH. cbn [length]. lia.
Qed.

(* the loop over the lines is the walk, started at the end of the scanned part *)
Lemma lc_ahead cur t ls : scan cur t ls -> forall q start i,
  lc_loop ls (start + length cur + q) start i =
    if Nat.ltb q (length t) then Some (walk t q (i + 1) (length cur + 1)) else None.
Proof.
  induction 1 as [|x cur|cur t ls _ IH|c cur t ls _ Hc Hs IH]; intros q start i; cbn [lc_loop].
  - reflexivity.
  - rewrite rev_length. destruct (Nat.ltb_spec (start + length (x :: cur) + q) (start + length (x :: cur))); [lia|reflexivity].
  - rewrite rev_length. cbn [length]. destruct q as [|q]; cbn [walk].
    + destruct (Nat.ltb_spec (start + length cur + 0) (start + S (length cur))); [|lia].
      cbn [Nat.ltb Nat.leb]. f_equal. f_equal. lia.
    + destruct (Nat.ltb_spec (start + length cur + S q) (start + S (length cur))); [lia|].
      replace (start + length cur + S q) with (start + S (length cur) + 0 + q) by lia.
      rewrite N.eqb_refl. exact (IH q _ _).
  - cbn [length]. destruct q as [|q]; cbn [walk].
    + rewrite (lc_inside _ _ _ Hs) by (cbn [length]; lia). cbn [Nat.ltb Nat.leb]. f_equal. f_equal. lia.
    + replace (start + length cur + S q) with (start + length (c :: cur) + q) by (cbn [length]; lia).
      rewrite Hc, IH. cbn [length Nat.add]. rewrite (Nat.add_1_r (length cur + 1)). reflexivity.
Qed.

Lemma total_len_scan cur t ls : scan cur t ls -> total_len ls = length cur + length t.
Proof.
  induction 1 as [|x cur|cur t ls _ IH|c cur t ls _ _ _ IH]; cbn [total_len fold_right length] in *.
  - reflexivity.
  - rewrite rev_length. cbn [length]. lia.
  - fold (total_len ls). rewrite IH, rev_length. cbn [length]. lia.
  - lia.
Qed.

Lemma total_len_in l ls : In l ls -> length l <= total_len ls.
Proof.
  induction ls as [|x ls IH]; intros H; [destruct H|].
  destruct H as [->|H]; cbn [total_len fold_right]; [lia|].
  apply IH in H. unfold total_len in H. lia.
Qed.

Lemma ends_break_rev_cons c cur : ends_with_break (rev (c :: cur)) = is_break c.
Proof. unfold ends_with_break. rewrite rev_involutive. reflexivity. Qed.

(* the hypothesis: the last character scanned in the current line is no break (for cur = [] it
   is is_break 0 = false) *)
Lemma walk_end cur t ls : scan cur t ls -> forall line, is_break (hd 0%N cur) = false ->
  walk t (length t) line (length cur + 1) =
    match rev ls with
    | last :: _ =>
        if ends_with_break last then (line + length ls, 1)
        else (line + length ls - 1, length last + 1)
    | [] => (line + length ls, 1)
    end.
Proof.
  induction 1 as [|x cur|cur t ls _ IH|c cur t ls Hb Hc _ IH]; intros line Hcur; cbn [length walk].
  - cbn [rev length]. rewrite Nat.add_0_r. reflexivity.
  - change (rev [rev (x :: cur)]) with [rev (x :: cur)]. cbv beta iota. cbn [hd] in Hcur.
    rewrite ends_break_rev_cons, Hcur, rev_length. cbn [length]. f_equal; lia.
  - specialize (IH (line + 1) eq_refl). cbn [length Nat.add] in IH. rewrite N.eqb_refl, IH.
    change (rev (rev (10%N :: cur) :: ls)) with (rev ls ++ [rev (10%N :: cur)]).
    destruct (rev ls) as [|last rest]; cbn [app].
    + rewrite ends_break_rev_cons. cbn. f_equal. lia.
    + destruct (ends_with_break last); f_equal; lia.
  - rewrite Hc. replace (length cur + 1 + 1) with (length (c :: cur) + 1) by (cbn [length]; lia).
    apply IH. exact Hb.
Qed.

(* C14: line_col is the walk, for every offset up to and including the end of the text *)
Theorem line_col_spec : forall t p, nl_only t = true -> p <= length t ->
  line_col t p = spec_line_col t p.
Proof.
  intros t p Hn Hp. unfold line_col, spec_line_col, split_keep.
  pose proof (scan_split t [] Hn) as Hs. revert Hs. generalize (split_aux [] t). intros ls Hs.
  rewrite (lc_ahead _ _ _ Hs p 0 0 : lc_loop ls p 0 0 = _).
  destruct (Nat.ltb_spec p (length t)) as [L|L]; [reflexivity|].
  assert (p = length t) by lia. subst p.
  pose proof (total_len_scan _ _ _ Hs) as T. pose proof (walk_end _ _ _ Hs 1 eq_refl) as W.
  cbn [length Nat.add] in T, W. rewrite T, W.
  destruct (rev ls) as [|last rest] eqn:E.
  - f_equal; lia.
  - assert (LL : length last <= length t).
    { rewrite <- T. apply total_len_in, in_rev. rewrite E. left. reflexivity. }
    destruct (ends_with_break last); f_equal; lia.
Qed.

Fixpoint count_nl (t : text) : nat :=
  match t with [] => 0 | c :: t' => (if N.eqb c 10 then 1 else 0) + count_nl t' end.

(* length of the part of t after its last \n (t itself when there is none) *)
Fixpoint after_last_nl (t : text) (acc : nat) : nat :=
  match t with [] => acc | c :: t' => if N.eqb c 10 then after_last_nl t' 0 else after_last_nl t' (S acc) end.

Lemma walk_counts : forall t p line col,
  walk t p line (S col) = (line + count_nl (firstn p t), 1 + after_last_nl (firstn p t) col).
Proof.
  induction t as [|c t IH]; intros p line col.
  - rewrite walk_nil, firstn_nil. cbn. f_equal. lia.
  - destruct p as [|p]; [cbn; f_equal; lia|].
    cbn [walk firstn count_nl after_last_nl].
    destruct (N.eqb c 10).
    + rewrite (IH p (line + 1) 0). f_equal. lia.
    + replace (S col + 1) with (S (S col)) by lia. rewrite IH. reflexivity.
Qed.

Theorem spec_line_col_counts : forall t p, p <= length t ->
  spec_line_col t p = (1 + count_nl (firstn p t), 1 + after_last_nl (firstn p t) 0).
Proof. intros t p _. exact (walk_counts t p 1 0). Qed.

(* behind injectivity: walking on either moves the column within the line or reaches a later line *)
Lemma walk_progress : forall t p line col, p <= length t ->
  (fst (walk t p line col) = line /\ snd (walk t p line col) = col + p) \/
  (line < fst (walk t p line col) /\ 1 <= snd (walk t p line col)).
Proof.
  induction t as [|c t IH]; intros p line col Hp.
  - rewrite walk_nil. cbn in Hp. left. cbn. lia.
  - destruct p as [|p]; [left; cbn; lia|]. cbn [walk]. cbn [length] in Hp.
    destruct (N.eqb c 10).
    + destruct (IH p (line + 1) 1) as [[A B]|[A B]]; lia.
    + destruct (IH p line (col + 1)) as [[A B]|[A B]]; lia.
Qed.

Lemma walk_add : forall t p q line col,
  walk t (p + q) line col =
  walk (skipn p t) q (fst (walk t p line col)) (snd (walk t p line col)).
Proof.
  induction t as [|c t IH]; intros p q line col.
  - rewrite skipn_nil, !walk_nil. reflexivity.
  - destruct p as [|p]; [reflexivity|]. cbn [Nat.add walk skipn].
    destruct (N.eqb c 10); apply IH.
Qed.

Theorem line_col_injective : forall t p q, p <= length t -> q <= length t ->
  spec_line_col t p = spec_line_col t q -> p = q.
Proof.
  assert (W : forall t p d, p + S d <= length t -> spec_line_col t p <> spec_line_col t (p + S d)).
  { intros t p d H E. unfold spec_line_col in E. rewrite (walk_add t p (S d)) in E.
    pose proof (walk_progress t p 1 1 ltac:(lia)) as B.
    destruct (walk t p 1 1) as [l c]. cbn [fst snd] in *.
    pose proof (walk_progress (skipn p t) (S d) l c ltac:(rewrite skipn_length; lia)) as B'.
    rewrite <- E in B'. cbn [fst snd] in B'. lia. }
  intros t p q Hp Hq E.
  destruct (Nat.lt_trichotomy p q) as [L|[L|L]]; [|exact L|].
  - exfalso. apply (W t p (q - p - 1)); [lia|]. replace (p + S (q - p - 1)) with q by lia. exact E.
  - exfalso. apply (W t q (p - q - 1)); [lia|]. replace (q + S (p - q - 1)) with p by lia.
    symmetry. exact E.
Qed.
