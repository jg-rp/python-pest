From Coq Require Import List NArith ZArith Bool Lia.
Import ListNotations.
From PP Require Import Base Syntax Spec SpecSyn SpecLaws SpecEquiv CharClass CharClassProof Opt.
Local Open Scope nat_scope.

(* OptProof.v — soundness of the translation validator of Opt.v: if `ochk_grammar g g'` accepts, the two tables
   give the same parses, in both directions (`ochk_sound`).

   One level of `ochk` is the relation `ostep` over the level below (`ochk_inv`, `ochk_of_ostep`); `ostep` has a
   clause per clause of `ochk` and is not recursive.  Each clause is justified by a simulation: `esim ga gb f toff e e'`
   says that a run of e in ga with fuel at most f, in a context where implicit trivia is off if `toff` says so, is
   matched up to the tracker by a run of e' in gb; `both` is `esim` in the two directions.  The congruence clauses
   are the congruences of SpecEquiv; inlining and outlining unfold the call of a plain silent rule; a squashed
   choice and a skip-until are compared through what both sides compute: the length matched by the first
   alternative that matches (`first_match`; the regex's order of trial gives the same if the checker's conflict
   test passes, `squash_first_match`), and the distance to the earliest occurrence of a literal (`scan`,
   `earliest_scan`, `skip_equiv`).

   Three fuels occur: f bounds the runs that are simulated, fo is the fuel of `ochk`, fl that of its collectors
   `lits` and `flat_terms`.  `sound_at_all` is by induction on f, inside it on fo, then by cases of `ostep`. *)

Lemma text_eqb_eq : forall a b, text_eqb a b = true -> a = b.
Proof.
  induction a as [|x a IH]; intros [|y b] H; cbn in H; try discriminate; [reflexivity|].
  apply andb_prop in H. destruct H as [H1 H2]. apply N.eqb_eq in H1. subst y.
  f_equal. apply IH. exact H2.
Qed.

Lemma texts_eqb_eq : forall a b, texts_eqb a b = true -> a = b.
Proof.
  induction a as [|x a IH]; intros [|y b] H; cbn in H; try discriminate; [reflexivity|].
  apply andb_prop in H. destruct H as [H1 H2]. apply text_eqb_eq in H1. subst y.
  f_equal. apply IH. exact H2.
Qed.

Lemma ranges_eqb_eq : forall a b, ranges_eqb a b = true -> a = b.
Proof.
  induction a as [|[x1 x2] a IH]; intros [|[y1 y2] b] H; cbn in H; try discriminate; [reflexivity|].
  apply andb_prop in H. destruct H as [H1 H3]. apply andb_prop in H1. destruct H1 as [H1 H2].
  apply N.eqb_eq in H1. apply N.eqb_eq in H2. subst. f_equal. apply IH. exact H3.
Qed.

Lemma optN_eqb_eq a b : optN_eqb a b = true -> a = b.
Proof. destruct a, b; cbn; intros H; try discriminate; [apply N.eqb_eq in H; subst|]; reflexivity. Qed.

Lemma optZ_eqb_eq a b : optZ_eqb a b = true -> a = b.
Proof. destruct a, b; cbn; intros H; try discriminate; [apply Z.eqb_eq in H; subst|]; reflexivity. Qed.

Lemma kind_eqb_eq a b : kind_eqb a b = true -> a = b.
Proof. destruct a, b; cbn; intros H; try discriminate; reflexivity. Qed.

Lemma term_eqb_eq a b : term_eqb a b = true -> a = b.
Proof.
  destruct a as [c1 w1|r1], b as [c2 w2|r2]; cbn; intros H; try discriminate.
  - apply andb_prop in H. destruct H as [H1 H2]. apply eqb_prop in H1. apply text_eqb_eq in H2.
    subst. reflexivity.
  - apply ranges_eqb_eq in H. subst. reflexivity.
Qed.

Lemma terms_eqb_eq : forall a b, terms_eqb a b = true -> a = b.
Proof.
  induction a as [|x a IH]; intros [|y b] H; cbn in H; try discriminate; [reflexivity|].
  apply andb_prop in H. destruct H as [H1 H2]. apply term_eqb_eq in H1. subst y.
  f_equal. apply IH. exact H2.
Qed.

Lemma text_eqb_refl a : text_eqb a a = true.
Proof. induction a as [|x a IH]; cbn; [reflexivity|]. rewrite N.eqb_refl. exact IH. Qed.
Lemma texts_eqb_refl a : texts_eqb a a = true.
Proof. induction a as [|x a IH]; cbn; [reflexivity|]. rewrite text_eqb_refl. exact IH. Qed.
Lemma ranges_eqb_refl a : ranges_eqb a a = true.
Proof. induction a as [|[x y] a IH]; cbn; [reflexivity|]. rewrite !N.eqb_refl. exact IH. Qed.
Lemma optN_eqb_refl a : optN_eqb a a = true.
Proof. destruct a; cbn; [apply N.eqb_refl|reflexivity]. Qed.
Lemma optZ_eqb_refl a : optZ_eqb a a = true.
Proof. destruct a; cbn; [apply Z.eqb_refl|reflexivity]. Qed.
Lemma kind_eqb_refl a : kind_eqb a a = true.
Proof. destruct a; reflexivity. Qed.

Definition tmatch (t : term) (rest : text) : option nat :=
  match t with
  | TLit false w => match strip_prefix w rest with Some _ => Some (length w) | None => None end
  | TLit true w => match strip_prefix_ci w rest with Some _ => Some (length w) | None => None end
  | TSet rs => match rest with d :: _ => if in_ranges d rs then Some 1%nat else None | [] => None end
  end.

Fixpoint first_match (ts : list term) (rest : text) : option nat :=
  match ts with
  | [] => None
  | t :: ts' => match tmatch t rest with Some n => Some n | None => first_match ts' rest end
  end.

Definition orelse (a b : option nat) : option nat := match a with Some n => Some n | None => b end.

Lemma first_match_app a b rest : first_match (a ++ b) rest = orelse (first_match a rest) (first_match b rest).
Proof.
  induction a as [|t a IH]; [reflexivity|]. cbn [app first_match].
  destruct (tmatch t rest); [reflexivity|exact IH].
Qed.

Definition setm (rs : list (N * N)) (rest : text) : option nat :=
  match rest with d :: _ => if in_ranges d rs then Some 1%nat else None | [] => None end.

Definition sets_of (ts : list term) : list (N * N) := concat (map set_of ts).

Lemma first_match_sets : forall ts rest, forallb (fun t => negb (is_lit t)) ts = true ->
  first_match ts rest = setm (sets_of ts) rest.
Proof.
  induction ts as [|t ts IH]; intros rest H.
  - destruct rest; reflexivity.
  - cbn [forallb] in H. apply andb_prop in H. destruct H as [H1 H2].
    destruct t as [ci w|rs]; [discriminate|].
    cbn [first_match tmatch]. unfold sets_of. cbn [map concat set_of]. fold (sets_of ts).
    specialize (IH rest H2). unfold setm in *. destruct rest as [|d rest']; [exact IH|].
    rewrite in_ranges_app. destruct (in_ranges d rs); [reflexivity|]. cbn [orb]. exact IH.
Qed.

Lemma sets_of_lits : forall ts, forallb is_lit ts = true -> sets_of ts = [].
Proof.
  induction ts as [|t ts IH]; intros H; [reflexivity|].
  cbn [forallb] in H. apply andb_prop in H. destruct H as [H1 H2].
  destruct t as [ci w|rs]; [|discriminate]. unfold sets_of. cbn. apply IH. exact H2.
Qed.

Lemma sets_of_app a b : sets_of (a ++ b) = sets_of a ++ sets_of b.
Proof. unfold sets_of. rewrite map_app, concat_app. reflexivity. Qed.

Lemma is_prefix_refl_app : forall a b, is_prefix a (a ++ b) = true.
Proof. induction a as [|x a IH]; intros b; cbn; [reflexivity|]. rewrite N.eqb_refl. apply IH. Qed.

Lemma strip_prefix_is_prefix : forall w rest r, strip_prefix w rest = Some r ->
  is_prefix (fold_text w) (fold_text rest) = true.
Proof.
  induction w as [|c w IH]; intros rest r H; [reflexivity|].
  destruct rest as [|d rest']; cbn in H; [discriminate|].
  destruct (N.eqb_spec c d) as [->|]; [|discriminate].
  cbn. rewrite N.eqb_refl. cbn. eapply IH. exact H.
Qed.

Lemma strip_prefix_ci_is_prefix : forall w rest r, strip_prefix_ci w rest = Some r ->
  is_prefix (fold_text w) (fold_text rest) = true.
Proof.
  induction w as [|c w IH]; intros rest r H; [reflexivity|].
  destruct rest as [|d rest']; cbn in H; [discriminate|].
  destruct (N.eqb (ascii_lower c) (ascii_lower d)) eqn:E; [|discriminate].
  cbn. rewrite E. cbn. eapply IH. exact H.
Qed.

Lemma two_prefixes : forall (a b l : text), is_prefix a l = true -> is_prefix b l = true ->
  is_prefix a b || is_prefix b a = true.
Proof.
  induction a as [|x a IH]; intros b l Ha Hb; [reflexivity|].
  destruct b as [|y b]; [cbn; reflexivity|].
  destruct l as [|z l]; [discriminate|]. cbn in Ha, Hb.
  apply andb_prop in Ha. destruct Ha as [A1 A2]. apply andb_prop in Hb. destruct Hb as [B1 B2].
  apply N.eqb_eq in A1. apply N.eqb_eq in B1. subst. cbn. rewrite N.eqb_refl. cbn.
  eapply IH; eassumption.
Qed.

Lemma tmatch_lit_prefix ci w rest n : tmatch (TLit ci w) rest = Some n ->
  n = length w /\ is_prefix (fold_text w) (fold_text rest) = true.
Proof.
  destruct ci; cbn.
  - destruct (strip_prefix_ci w rest) eqn:E; intros H; inversion H; subst.
    split; [reflexivity|eapply strip_prefix_ci_is_prefix; exact E].
  - destruct (strip_prefix w rest) eqn:E; intros H; inversion H; subst.
    split; [reflexivity|eapply strip_prefix_is_prefix; exact E].
Qed.

Lemma lower_eq_cases c d : ascii_lower d = ascii_lower c -> d = c \/ ((d < 128)%N /\ (c < 128)%N).
Proof.
  unfold ascii_lower.
  destruct (N.leb_spec 65 c), (N.leb_spec c 90), (N.leb_spec 65 d), (N.leb_spec d 90);
    cbn [andb]; intros HH; lia.
Qed.

Lemma memN_existsb (p : N -> bool) d l : memN d l = true -> p d = true -> existsb p l = true.
Proof.
  induction l as [|x l IH]; cbn; intros H Hp; [discriminate|].
  apply orb_prop in H. destruct H as [H|H].
  - apply N.eqb_eq in H. subst x. rewrite Hp. reflexivity.
  - rewrite (IH H Hp). apply orb_true_r.
Qed.

Lemma memN_variants c d : memN d (ascii_variants c) = N.eqb (ascii_lower c) (ascii_lower d).
Proof.
  rewrite ascii_variants_spec, (N.eqb_sym (ascii_lower d)).
  destruct (N.eqb_spec (ascii_lower c) (ascii_lower d)) as [E|NE]; [|reflexivity].
  cbn [andb]. destruct (lower_eq_cases c d (eq_sym E)) as [->|[A B]].
  - rewrite N.eqb_refl. reflexivity.
  - apply N.ltb_lt in A. apply N.ltb_lt in B. rewrite A, B. apply orb_true_r.
Qed.

Lemma lit_first_char ci c w d rest n : tmatch (TLit ci (c :: w)) (d :: rest) = Some n ->
  memN d (ascii_variants c) = true.
Proof.
  intros H. rewrite memN_variants. destruct ci; cbn in H.
  - destruct (N.eqb (ascii_lower c) (ascii_lower d)); [reflexivity|discriminate].
  - destruct (N.eqb_spec c d) as [->|]; [apply N.eqb_refl|discriminate].
Qed.

Lemma conflict_sound a b rest n m :
  tmatch a rest = Some n -> tmatch b rest = Some m -> n <> m -> conflict a b = true.
Proof.
  intros Ha Hb D. destruct a as [c1 w1|r1], b as [c2 w2|r2].
  - apply tmatch_lit_prefix in Ha. apply tmatch_lit_prefix in Hb.
    destruct Ha as [-> P1], Hb as [-> P2]. cbn [conflict].
    apply Nat.eqb_neq in D. rewrite D. cbn [negb andb].
    eapply two_prefixes; eassumption.
  - cbn [conflict]. destruct w1 as [|c w1]; [reflexivity|].
    cbn [tmatch] in Hb. destruct rest as [|d rest']; [discriminate|].
    destruct (in_ranges d r2) eqn:E; [|discriminate]. inversion Hb; subst m.
    assert (V := lit_first_char _ _ _ _ _ _ Ha).
    apply tmatch_lit_prefix in Ha. destruct Ha as [-> _].
    apply Nat.eqb_neq in D. rewrite D. cbn [negb andb].
    eapply memN_existsb; [exact V|exact E].
  - cbn [conflict]. destruct w2 as [|c w2]; [reflexivity|].
    cbn [tmatch] in Ha. destruct rest as [|d rest']; [discriminate|].
    destruct (in_ranges d r1) eqn:E; [|discriminate]. inversion Ha; subst n.
    assert (V := lit_first_char _ _ _ _ _ _ Hb).
    apply tmatch_lit_prefix in Hb. destruct Hb as [-> _].
    assert (D' : length (c :: w2) <> 1%nat) by congruence.
    apply Nat.eqb_neq in D'. rewrite D'. cbn [negb andb].
    eapply memN_existsb; [exact V|exact E].
  - exfalso. cbn [tmatch] in Ha, Hb. destruct rest as [|d rest']; [discriminate|].
    destruct (in_ranges d r1); [|discriminate]. destruct (in_ranges d r2); [|discriminate]. congruence.
Qed.

Lemma first_match_all_len : forall l rest n,
  (forall b m, In b l -> tmatch b rest = Some m -> m = n) ->
  first_match l rest = None \/ first_match l rest = Some n.
Proof.
  induction l as [|t l IH]; intros rest n H; [left; reflexivity|].
  cbn [first_match]. destruct (tmatch t rest) as [m|] eqn:E.
  - right. f_equal. eapply H; [left; reflexivity|exact E].
  - apply IH. intros b m Hb. apply H. right. exact Hb.
Qed.

Definition regex_order (ts : list term) (rest : text) : option nat :=
  orelse (first_match (filter is_sens ts) rest)
    (orelse (first_match (filter is_insens ts) rest) (setm (sets_of ts) rest)).

Lemma orelse_same a n : (a = None \/ a = Some n) -> orelse a (Some n) = Some n.
Proof. intros [->| ->]; reflexivity. Qed.

Lemma first_match_regex_order : forall ts rest, no_inverted_conflict ts = true -> first_match ts rest = regex_order ts rest.
Proof.
  induction ts as [|a ts IH]; intros rest H.
  - unfold regex_order, sets_of, setm. cbn. destruct rest; reflexivity.
  - cbn [no_inverted_conflict] in H. apply andb_prop in H. destruct H as [H1 H2].
    specialize (IH rest H2).
    (* every later terminal that the regex tries before a matches with the length of a, or not at all *)
    assert (LOW : forall p n, (forall b, p b = true -> Nat.ltb (rank b) (rank a) = true) ->
                    tmatch a rest = Some n ->
                    first_match (filter p ts) rest = None \/ first_match (filter p ts) rest = Some n).
    { intros p n Hp Ha. apply first_match_all_len. intros b m Hb Hm. apply filter_In in Hb. destruct Hb as [Hb Hs].
      rewrite forallb_forall in H1. specialize (H1 b Hb). rewrite (Hp b Hs) in H1. cbn [negb orb] in H1.
      destruct (Nat.eq_dec m n) as [e|ne]; [exact e|].
      rewrite (conflict_sound a b rest n m Ha Hm) in H1; [discriminate|congruence]. }
    cbn [first_match]. unfold regex_order. destruct a as [[|] w|rs].
    + cbn [filter is_sens is_insens]. unfold sets_of. cbn [map set_of concat app]. fold (sets_of ts).
      cbn [first_match]. destruct (tmatch (TLit true w) rest) as [n|] eqn:E; [|exact IH].
      cbn [orelse]. symmetry. apply orelse_same. apply LOW; [|reflexivity].
      intros [[|] wb|rb] Hb; try discriminate; reflexivity.
    + cbn [filter is_sens is_insens]. unfold sets_of. cbn [map set_of concat app]. fold (sets_of ts).
      cbn [first_match]. destruct (tmatch (TLit false w) rest) as [n|] eqn:E; [reflexivity|exact IH].
    + cbn [filter is_sens is_insens]. unfold sets_of. cbn [map set_of concat]. fold (sets_of ts).
      destruct (tmatch (TSet rs) rest) as [n|] eqn:E.
      * assert (n = 1%nat).
        { cbn in E. destruct rest; [discriminate|]. destruct (in_ranges _ _); congruence. }
        subst n.
        assert (S1 : setm (rs ++ sets_of ts) rest = Some 1%nat).
        { cbn in E. unfold setm. destruct rest as [|d r]; [discriminate|]. rewrite in_ranges_app.
          destruct (in_ranges d rs); [reflexivity|discriminate]. }
        rewrite S1. symmetry. rewrite (orelse_same _ 1%nat).
        -- apply orelse_same. apply LOW; [|reflexivity]. intros [[|] wb|rb] Hb; try discriminate; reflexivity.
        -- apply LOW; [|reflexivity]. intros [[|] wb|rb] Hb; try discriminate; reflexivity.
      * rewrite IH. unfold regex_order. f_equal. f_equal.
        cbn in E. unfold setm. destruct rest as [|d r]; [reflexivity|]. rewrite in_ranges_app.
        destruct (in_ranges d rs); [discriminate|reflexivity].
Qed.

Lemma target_shape ts' : filter is_lit (skipn (length (filter is_lit ts')) ts') = [] ->
  exists L S, ts' = L ++ S /\ L = filter is_lit ts' /\ forallb is_lit L = true /\
              forallb (fun t => negb (is_lit t)) S = true.
Proof.
  intros H. set (k := length (filter is_lit ts')) in *.
  exists (firstn k ts'), (skipn k ts').
  assert (E : filter is_lit ts' = filter is_lit (firstn k ts')).
  { rewrite <- (firstn_skipn k ts') at 1. rewrite filter_app, H, app_nil_r. reflexivity. }
  assert (F : forallb is_lit (firstn k ts') = true).
  { apply filter_full. rewrite <- E. fold k. apply firstn_le_length. }
  split; [symmetry; apply firstn_skipn|]. split; [|split].
  - rewrite E. symmetry. apply filter_all. exact F.
  - exact F.
  - apply filter_none. exact H.
Qed.

Lemma setm_ext a b rest : (forall c, in_ranges c a = in_ranges c b) -> setm a rest = setm b rest.
Proof. intros H. unfold setm. destruct rest; [reflexivity|]. rewrite H. reflexivity. Qed.

Lemma orelse_assoc a b c : orelse (orelse a b) c = orelse a (orelse b c).
Proof. destruct a; reflexivity. Qed.

Lemma forallb_app_lit a b : forallb is_lit a = true -> forallb is_lit b = true -> forallb is_lit (a ++ b) = true.
Proof. intros. rewrite forallb_app. rewrite H, H0. reflexivity. Qed.

Theorem squash_first_match ts ts' rest : squash_ok ts ts' = true -> first_match ts rest = first_match ts' rest.
Proof.
  unfold squash_ok. intros H.
  apply andb_prop in H. destruct H as [H H5].
  apply andb_prop in H. destruct H as [H H4].
  apply andb_prop in H. destruct H as [H H3].
  apply andb_prop in H. destruct H as [H1 H2].
  apply terms_eqb_eq in H2. apply terms_eqb_eq in H3. apply ranges_eqb_eq in H4.
  rewrite (first_match_regex_order ts rest H5).
  destruct (target_shape ts' H3) as [L [S [E [EL [FL FS]]]]].
  rewrite E, first_match_app. rewrite EL, H2, first_match_app. unfold regex_order. rewrite orelse_assoc.
  f_equal. f_equal. rewrite (first_match_sets S rest FS). apply setm_ext. intros c.
  assert (X : sets_of ts' = sets_of S).
  { rewrite E, sets_of_app, (sets_of_lits L FL). reflexivity. }
  rewrite <- X. unfold sets_of.
  rewrite <- (merge_ranges_mem c (concat (map set_of ts))), H4. apply merge_ranges_mem.
Qed.

Definition is_some {A} (o : option A) : bool := match o with Some _ => true | None => false end.

(* some literal of ws starts the input *)
Definition pref (ws : list text) (rest : text) : bool :=
  existsb (fun w => is_some (strip_prefix w rest)) ws.

(* the number of characters before the first position where one does *)
Fixpoint scan (ws : list text) (rest : text) : nat :=
  if pref ws rest then 0 else match rest with [] => 0 | _ :: r => S (scan ws r) end.

Lemma find_sub_from_shift : forall sub rest acc,
  find_sub_from sub rest (acc + 1)%N = option_map N.succ (find_sub_from sub rest acc).
Proof.
  induction rest as [|d r IH]; intros acc; cbn [find_sub_from].
  - destruct (strip_prefix sub []); cbn; [f_equal; lia|reflexivity].
  - destruct (strip_prefix sub (d :: r)); cbn; [f_equal; lia|]. apply IH.
Qed.

Lemma find_sub_here sub rest r : strip_prefix sub rest = Some r -> find_sub sub rest = Some 0%N.
Proof. intros H. unfold find_sub. destruct rest; cbn [find_sub_from]; rewrite H; reflexivity. Qed.

Lemma find_sub_nil sub : strip_prefix sub [] = None -> find_sub sub [] = None.
Proof. intros H. unfold find_sub. cbn [find_sub_from]. rewrite H. reflexivity. Qed.

Lemma find_sub_cons sub d r : strip_prefix sub (d :: r) = None ->
  find_sub sub (d :: r) = option_map N.succ (find_sub sub r).
Proof.
  intros H. unfold find_sub. cbn [find_sub_from]. rewrite H.
  change 1%N with (0 + 1)%N at 1. apply find_sub_from_shift.
Qed.

Lemma earliest_zero : forall ws rest, earliest ws rest (Some 0%N) = Some 0%N.
Proof.
  induction ws as [|w ws IH]; intros rest; cbn [earliest]; [reflexivity|].
  destruct (find_sub w rest) as [p|]; [|apply IH].
  destruct (N.ltb_spec p 0); [lia|apply IH].
Qed.

Lemma earliest_hit : forall ws rest best, pref ws rest = true -> earliest ws rest best = Some 0%N.
Proof.
  induction ws as [|w ws IH]; intros rest best H; cbn in H; [discriminate|].
  cbn [earliest]. destruct (strip_prefix w rest) as [r|] eqn:E.
  - rewrite (find_sub_here w rest r E).
    destruct best as [b|]; [|apply earliest_zero].
    destruct (N.ltb_spec 0 b); [apply earliest_zero|].
    assert (b = 0%N) by lia. subst b. apply earliest_zero.
  - cbn in H. apply IH. exact H.
Qed.

Lemma earliest_miss : forall ws rest best,
  (forall w, In w ws -> find_sub w rest = None) -> earliest ws rest best = best.
Proof.
  induction ws as [|w ws IH]; intros rest best H; cbn [earliest]; [reflexivity|].
  rewrite (H w (or_introl eq_refl)). apply IH. intros w' Hw. apply H. right. exact Hw.
Qed.

Lemma earliest_succ : forall ws d r best,
  (forall w, In w ws -> find_sub w (d :: r) = option_map N.succ (find_sub w r)) ->
  earliest ws (d :: r) (option_map N.succ best) = option_map N.succ (earliest ws r best).
Proof.
  induction ws as [|w ws IH]; intros d r best H; cbn [earliest]; [reflexivity|].
  rewrite (H w (or_introl eq_refl)).
  assert (H' : forall w', In w' ws -> find_sub w' (d :: r) = option_map N.succ (find_sub w' r)).
  { intros w' Hw. apply H. right. exact Hw. }
  destruct (find_sub w r) as [p|]; cbn [option_map].
  - destruct best as [b|]; cbn [option_map].
    + destruct (N.ltb_spec (N.succ p) (N.succ b)), (N.ltb_spec p b); try lia.
      * apply (IH d r (Some p) H').
      * apply (IH d r (Some b) H').
    + apply (IH d r (Some p) H').
  - apply (IH d r best H').
Qed.

Lemma pref_false ws rest w : pref ws rest = false -> In w ws -> strip_prefix w rest = None.
Proof.
  intros H Hw. unfold pref in H.
  destruct (strip_prefix w rest) eqn:E; [|reflexivity].
  assert (X : existsb (fun w => is_some (strip_prefix w rest)) ws = true).
  { apply existsb_exists. exists w. split; [exact Hw|rewrite E; reflexivity]. }
  congruence.
Qed.

Theorem earliest_scan : forall ws rest,
  match earliest ws rest None with Some p => p | None => lenN rest end = N.of_nat (scan ws rest).
Proof.
  intros ws. induction rest as [|d r IH]; cbn [scan].
  - destruct (pref ws []) eqn:E.
    + rewrite (earliest_hit ws [] None E). reflexivity.
    + rewrite earliest_miss; [reflexivity|].
      intros w Hw. apply find_sub_nil. eapply pref_false; eassumption.
  - destruct (pref ws (d :: r)) eqn:E.
    + rewrite (earliest_hit ws (d :: r) None E). reflexivity.
    + change (@None N) with (option_map N.succ None). rewrite earliest_succ.
      * destruct (earliest ws r None) as [p|]; cbn [option_map].
        -- rewrite IH. lia.
        -- unfold lenN in *. cbn [length]. rewrite !Nat2N.inj_succ, IH. reflexivity.
      * intros w Hw. apply find_sub_cons. eapply pref_false; eassumption.
Qed.

Lemma scan_le ws : forall rest, scan ws rest <= length rest.
Proof.
  induction rest as [|d r IH]; cbn [scan]; destruct (pref ws _); cbn [length]; lia.
Qed.

Lemma plain_silent_inv r : plain_silent r = true ->
  r_silent r = true /\ r_kind r = KNormal /\ is_trivia_name (r_name r) = false.
Proof.
  unfold plain_silent. intros H. apply andb_prop in H. destruct H as [H H3].
  apply andb_prop in H. destruct H as [H1 H2]. apply kind_eqb_eq in H2.
  apply negb_true_iff in H3. repeat split; assumption.
Qed.

Lemma plain_ctx_atom c r : plain_silent r = true -> c_atom (rule_ctx c r) = c_atom c.
Proof.
  intros H. destruct (plain_silent_inv r H) as [_ [K T]].
  unfold rule_ctx, body_atom. cbn [c_atom]. rewrite K, T. reflexivity.
Qed.

Lemma silent_call g f c n r s : lookup g n = Some r -> r_silent r = true ->
  run g (S f) c (TEval (ERef n None)) s = run g f (rule_ctx c r) (TEval (r_body r)) s.
Proof.
  intros L S1. cbn [run]. rewrite L. cbn [push_tag].
  destruct (run g f (rule_ctx c r) (TEval (r_body r)) s); try reflexivity.
  unfold finish_rule. rewrite S1. reflexivity.
Qed.

Lemma plain_call g f c n r s : lookup g n = Some r -> plain_silent r = true ->
  run g (S f) c (TEval (ERef n None)) s = run g f (rule_ctx c r) (TEval (r_body r)) s.
Proof. intros L H. apply silent_call; [exact L|apply (plain_silent_inv r H)]. Qed.

Lemma silent_call_evals g c n r s x : lookup g n = Some r -> r_silent r = true ->
  (evals g c (ERef n None) s x <-> evals g (rule_ctx c r) (r_body r) s x).
Proof.
  intros L S1. split; intros [f [H D]].
  - destruct f as [|f]; [cbn in H; congruence|].
    rewrite (silent_call g f c n r s L S1) in H. exists f. split; assumption.
  - exists (S f). rewrite (silent_call g f c n r s L S1). split; assumption.
Qed.

Lemma leaf_run ga gb e : terminal e = true -> forall f c s,
  run ga f c (TEval e) s = run gb f c (TEval e) s.
Proof. intros H f c s. destruct f; [reflexivity|]. destruct e; try discriminate; reflexivity. Qed.

Section Gen.
Variables ga gb : grammar.
Hypothesis Hsk : skip_expr ga = skip_expr gb.

(* implicit trivia is not skipped at c *)
Definition off (c : ctx) : Prop := c_atom c <> NonAtomic \/ skip_expr ga = None.
Definition okc (toff : bool) (c : ctx) : Prop := toff = true -> off c.

Lemma okc_atom toff c c' : c_atom c = c_atom c' -> okc toff c -> okc toff c'.
Proof. intros E H T. specialize (H T). unfold off in *. rewrite <- E. exact H. Qed.

Lemma okc_false c : okc false c.
Proof. intros X. discriminate. Qed.

Lemma skip_off ev c s : off c -> skip_with ga ev c s = Ok s [].
Proof.
  intros [H|H]; unfold skip_with.
  - destruct (c_atom c); [congruence|reflexivity|reflexivity].
  - rewrite H. destruct (c_atom c); reflexivity.
Qed.

Definition crel (toff : bool) (c c' : ctx) : Prop := okc toff c /\ c_atom c = c_atom c'.

(* `esim` with its hypotheses written out, on tasks; `rsim` is its instance at one context and one state *)
Definition tsimc (f : nat) (toff : bool) (t t' : task) : Prop :=
  forall f0 c c' s s' r, f0 <= f -> okc toff c -> c_atom c = c_atom c' -> same_core s s' ->
    run ga f0 c t s = r -> r <> Fuel -> exists r', runs gb c' t' s' r' /\ req r' r.

Definition rsim (f : nat) (toff : bool) (t t' : task) : Prop :=
  forall f0 c s r, f0 <= f -> okc toff c -> run ga f0 c t s = r -> r <> Fuel ->
    exists r', runs gb c t' s r' /\ req r' r.

(* `esim f toff e e'` is SpecEquiv.task_sim between contexts of the same atomicity, the left one with implicit
   trivia off if `toff` says so: for f0 <= f, such contexts c, c' and states of the same core, a run of e in ga at
   c with fuel f0 that does not run out of fuel is matched, up to the tracker, by a run of e' in gb at c'. *)
Definition esim (f : nat) (toff : bool) (e e' : expr) : Prop :=
  task_sim ga gb (crel toff) f (TEval e) (TEval e').

Lemma tsimc_rsim f toff t t' : tsimc f toff t t' -> rsim f toff t t'.
Proof. intros H f0 c s r L Oc E D. exact (H f0 c c s s r L Oc eq_refl (same_core_refl _) E D). Qed.

Lemma crel_neg toff c c' : crel toff c c' -> crel toff (neg_ctx c) (neg_ctx c').
Proof. intros [Oc Hc]. split; [eapply okc_atom; [|exact Oc]; reflexivity|exact Hc]. Qed.

Lemma sksim_of f toff : (forall e, skip_expr ga = Some e -> esim f false e e) ->
  trivia_sim ga gb (crel toff) f.
Proof.
  intros H f0 c c' s s' L [_ Hc] Hs.
  assert (T : covered (Ok s []) (yields (fun _ => Ok s' []))).
  { intros _. exists (Ok s' []). split; [exists 0; split; [reflexivity|discriminate]|auto with req]. }
  unfold skip_with. rewrite <- Hc, <- Hsk. destruct (c_atom c); [|exact T..].
  destruct (skip_expr ga) as [e|] eqn:K; [|exact T].
  apply (H e eq_refl f0 (skip_ctx c) (skip_ctx c') s s' L); [split; [apply okc_false|reflexivity]|exact Hs].
Qed.

Lemma leaf_sim f toff e : terminal e = true -> esim f toff e e.
Proof.
  intros HL f0 c c' s s' L [_ Hc] Hs D. rewrite (leaf_run ga gb e HL) in *.
  apply (yields_req _ _ (fun f => run_core_ctx gb f c' c (TEval e) s' s (eq_sym Hc) Hs)).
  exists f0. split; [reflexivity|exact D].
Qed.

Lemma total_sim f toff e e' :
  (forall c s, okc toff c -> exists r r', evals ga c e s r /\ evals gb c e' s r' /\ req r' r) ->
  esim f toff e e'.
Proof.
  intros H f0 c c' s s' L [Oc Hc] Hs D. destruct (H c s Oc) as [r [r' [H1 [H2 R]]]].
  rewrite (runs_det ga c (TEval e) s _ r (ex_intro _ f0 (conj eq_refl D)) H1).
  destruct (runs_core gb c c' (TEval e') s s' r' Hc (same_core_sym _ _ Hs) H2) as [r2 [H3 R2]].
  exists r2. split; [exact H3|eapply req_trans; eassumption].
Qed.

Lemma ref_sim f toff tr n tag r r' :
  lookup ga n = Some r -> lookup gb n = Some r' ->
  r_silent r = r_silent r' -> r_kind r = r_kind r' ->
  (forall c, okc tr (rule_ctx c r)) ->
  esim f tr (r_body r) (r_body r') ->
  esim (S f) toff (ERef n tag) (ERef n tag).
Proof.
  intros La Lb Es Ek Ho H.
  assert (En : r_name r = r_name r').
  { rewrite (lookup_name _ _ _ La), (lookup_name _ _ _ Lb). reflexivity. }
  apply task_sim_S. intros f0 c c' s s' L [_ Hc] Hs. cbn [run]. rewrite La, Lb.
  assert (Ea : c_atom (rule_ctx c r) = c_atom (rule_ctx c' r')).
  { cbn [rule_ctx c_atom]. unfold body_atom. rewrite Ek, En, Hc. reflexivity. }
  apply covered_call; [apply run_stable|apply H; [exact L|split; [apply Ho|exact Ea]|auto with req]|
                       |intros; apply covered_ret; auto with req].
  intros s1 s1' kids R. apply covered_ret. unfold finish_rule.
  assert (V : visible c' r' = visible c r) by (unfold visible; rewrite Es, Ek, Hc; reflexivity).
  destruct (same_core_inv _ _ Hs) as [Ep _]. destruct (same_core_inv _ _ R) as [Ep1 [_ [_ Eg1]]].
  rewrite V, <- Es, <- En, Ep, Ep1, Eg1.
  destruct (r_silent r); [|destruct (visible c r)]; auto with req.
Qed.

Lemma ref_undef_sim f toff n tag : lookup ga n = None -> lookup gb n = None ->
  esim f toff (ERef n tag) (ERef n tag).
Proof.
  intros La Lb [|f0] c c' s s' L _ _ D; [contradiction D; reflexivity|].
  cbn [run]. rewrite La. exists Err. split; [|exact I].
  exists 1. cbn [run]. rewrite Lb. split; [reflexivity|discriminate].
Qed.

Lemma call_l_sim f toff n r e' : lookup ga n = Some r -> plain_silent r = true ->
  esim f toff (r_body r) e' -> esim (S f) toff (ERef n None) e'.
Proof.
  intros L P H [|f0] c c' s s' Lf [Oc Hc] Hs; [intros D; contradiction D; reflexivity|].
  rewrite (plain_call ga f0 c n r s L P). pose proof (plain_ctx_atom c r P) as A.
  apply H; [lia| |exact Hs]. split; [eapply okc_atom; [symmetry; exact A|exact Oc]|congruence].
Qed.

Lemma call_r_sim f toff n r e : lookup gb n = Some r -> plain_silent r = true ->
  esim f toff e (r_body r) -> esim f toff e (ERef n None).
Proof.
  intros L P H f0 c c' s s' Lf [Oc Hc] Hs D. pose proof (plain_ctx_atom c' r P) as A.
  destruct (H f0 c (rule_ctx c' r) s s' Lf (conj Oc (eq_trans Hc (eq_sym A))) Hs D) as [x' [[f' [H1 D1]] R]].
  exists x'. split; [|exact R]. exists (S f'). rewrite (plain_call gb f' c' n r s' L P). split; assumption.
Qed.

Lemma grp_l_sim f toff x e' : esim f toff x e' -> esim (S f) toff (EGrp x None) e'.
Proof.
  intros H [|f0] c c' s s' Lf Hc Hs; [intros D; contradiction D; reflexivity|].
  cbn [run push_tag]. replace (match run ga f0 c (TEval x) s with Ok s1 ps => Ok (pop_tag None s1) ps | w => w end)
    with (run ga f0 c (TEval x) s) by (destruct (run ga f0 c (TEval x) s); reflexivity).
  apply H; [lia|exact Hc|exact Hs].
Qed.

Lemma grp_r_sim f toff e x : esim f toff e x -> esim f toff e (EGrp x None).
Proof.
  intros H f0 c c' s s' Lf Hc Hs D. destruct (H f0 c c' s s' Lf Hc Hs D) as [r' [H1 R]].
  exists r'. split; [|exact R]. apply evals_grp_none. exact H1.
Qed.

Lemma runs_as_seq_sim f toff e e' es es' :
  (forall f c s, run ga (S f) c (TEval e) s = run ga f c (TSeq es) s) ->
  (forall f c s, run gb (S f) c (TEval e') s = run gb f c (TSeq es') s) ->
  trivia_sim ga gb (crel toff) f -> Forall2 (esim f toff) es es' -> esim (S f) toff e e'.
Proof.
  intros Ea Eb SK HF. apply (sim_step ga gb (crel toff) f e e' (TSeq es) (TSeq es') Ea Eb).
  apply (task_sim_le ga gb (crel toff) (S f)); [lia|]. apply sim_seq; assumption.
Qed.

Lemma choice_sim f toff es es' :
  Forall2 (esim f toff) es es' -> esim (S f) toff (EAlt es) (EAlt es').
Proof.
  intros HF. apply (sim_step ga gb (crel toff) f _ _ (TAlt es) (TAlt es')); try reflexivity.
  apply (task_sim_le ga gb (crel toff) (S f)); [lia|]. apply sim_alt. exact HF.
Qed.

End Gen.

(* the outcome r of a run from s: success after exactly k characters with no pair (Some k), a failure (None) *)
Definition ends_after (n : option nat) (s : st) (r : res) : Prop :=
  match n with
  | Some k => exists s1, r = Ok s1 [] /\ same_core s1 (adv s (N.of_nat k) (skipn k (s_rest s)))
  | None => exists t, r = Fail t
  end.

Lemma in_ranges_singles d l : in_ranges d (map (fun x => (x, x)) l) = memN d l.
Proof.
  induction l as [|x l IH]; [reflexivity|]. cbn. rewrite IH. f_equal.
  destruct (N.eqb_spec d x) as [->|NE].
  - rewrite N.leb_refl. reflexivity.
  - destruct (N.leb_spec x d), (N.leb_spec d x); cbn; try reflexivity. lia.
Qed.

Definition gather {A} (col : expr -> option (list A)) (es : list expr) : option (list A) :=
  fold_right (fun x acc => match col x, acc with
                           | Some a, Some b => Some (a ++ b)
                           | _, _ => None end) (Some []) es.

Section Sem.
Variable h : grammar.

(* a literal; `sp` strips it from the input, case-sensitively or not *)
Lemma lit_sem e w (sp : text -> text -> option text) c s :
  run h 1 c (TEval e) s = match sp w (s_rest s) with
                          | Some r0 => Ok (adv s (lenN w) r0) []
                          | None => Fail (record c false (c_rule c) s)
                          end ->
  (forall r0, sp w (s_rest s) = Some r0 -> r0 = skipn (length w) (s_rest s)) ->
  exists r, evals h c e s r /\
            ends_after (match sp w (s_rest s) with Some _ => Some (length w) | None => None end) s r.
Proof.
  intros E K. exists (run h 1 c (TEval e) s). split.
  - exists 1. split; [reflexivity|]. rewrite E. destruct (sp w (s_rest s)); discriminate.
  - rewrite E. destruct (sp w (s_rest s)) as [r0|]; [|eexists; reflexivity].
    eexists. split; [reflexivity|]. rewrite <- (K r0 eq_refl). apply same_core_refl.
Qed.

(* an expression that consumes exactly one character satisfying p *)
Lemma onechar_sem e rs c s (p : N -> bool) :
  (forall c s, run h 1 c (TEval e) s =
     match s_rest s with
     | d :: r => if p d then Ok (adv s 1%N r) [] else Fail (match e with ECls _ => s_trk s | _ => record c false (c_rule c) s end)
     | [] => Fail (match e with ECls _ => s_trk s | _ => record c false (c_rule c) s end)
     end) ->
  (forall d, p d = in_ranges d rs) ->
  exists r, evals h c e s r /\ ends_after (tmatch (TSet rs) (s_rest s)) s r.
Proof.
  intros E P. exists (run h 1 c (TEval e) s). split.
  - exists 1. split; [reflexivity|]. rewrite E. destruct (s_rest s); [discriminate|].
    destruct (p n); discriminate.
  - rewrite E. cbn [tmatch]. destruct (s_rest s) as [|d r0] eqn:R; [eexists; reflexivity|].
    rewrite <- P. destruct (p d); [|eexists; reflexivity].
    eexists. split; [reflexivity|]. cbn [skipn]. rewrite R. apply same_core_refl.
Qed.

Lemma term_sem e t : term_of e = Some t -> forall c s,
  exists r, evals h c e s r /\ ends_after (tmatch t (s_rest s)) s r.
Proof.
  intros H c s. destruct e; try discriminate; cbn [term_of] in H.
  - destruct s0 as [|a [|b w]]; inversion H; subst;
      try (apply (lit_sem _ _ strip_prefix); [reflexivity|intros r0 E; apply (strip_prefix_skipn _ _ _ E)]).
    apply (onechar_sem (EStr [a]) [(a, a)] c s (fun d => N.eqb a d)).
    + intros c0 s0. cbn [run strip_prefix]. destruct (s_rest s0) as [|d r]; [reflexivity|].
      destruct (N.eqb a d); reflexivity.
    + intros d. rewrite (N.eqb_sym a d), <- (orb_false_r (N.eqb d a)). symmetry. apply (in_ranges_singles d [a]).
  - destruct s0 as [|a [|b w]]; inversion H; subst;
      try (apply (lit_sem _ _ strip_prefix_ci); [reflexivity|apply strip_prefix_ci_suffix]).
    apply (onechar_sem (ECIStr [a]) (ci_set a) c s (fun d => N.eqb (ascii_lower a) (ascii_lower d))).
    + intros c0 s0. cbn [run strip_prefix_ci]. destruct (s_rest s0) as [|d r]; [reflexivity|].
      destruct (N.eqb (ascii_lower a) (ascii_lower d)); reflexivity.
    + intros d. unfold ci_set. rewrite in_ranges_singles, memN_variants. reflexivity.
  - inversion H; subst.
    apply (onechar_sem (ERange lo hi) [(lo, hi)] c s (fun d => N.leb lo d && N.leb d hi)).
    + intros c0 s0. cbn [run]. reflexivity.
    + intros d. cbn. rewrite orb_false_r. reflexivity.
  - inversion H; subst.
    apply (onechar_sem (ECls rs) rs c s (fun d => in_ranges d rs)).
    + intros c0 s0. cbn [run]. reflexivity.
    + intros d. reflexivity.
Qed.

Lemma plain_call_evals c n r0 s r : lookup h n = Some r0 -> plain_silent r0 = true ->
  evals h (rule_ctx c r0) (r_body r0) s r -> evals h c (ERef n None) s r.
Proof.
  intros L P. apply (silent_call_evals h c n r0 s r L (proj1 (plain_silent_inv r0 P))).
Qed.

Lemma flat_alt_sem fl :
  (forall e ts, flat_terms h fl e = Some ts -> forall c s,
      exists r, evals h c e s r /\ ends_after (first_match ts (s_rest s)) s r) ->
  forall es ts, gather (flat_terms h fl) es = Some ts -> forall c s,
    exists r, runs h c (TAlt es) s r /\ ends_after (first_match ts (s_rest s)) s r.
Proof.
  intros IH. induction es as [|x es IHes]; intros ts H c s.
  - cbn in H. inversion H; subst. exists (Fail (s_trk s)).
    split; [apply runs_alt_nil; reflexivity|eexists; reflexivity].
  - cbn [gather fold_right] in H. fold (gather (flat_terms h fl) es) in H.
    destruct (flat_terms h fl x) as [a|] eqn:Ea; [|discriminate].
    destruct (gather (flat_terms h fl) es) as [b|] eqn:Eb; [|discriminate]. inversion H; subst ts.
    destruct (IH x a Ea c s) as [r1 [H1 S1]].
    rewrite first_match_app. destruct (first_match a (s_rest s)) as [k|] eqn:Fa; cbn [orelse].
    + destruct S1 as [s1 [-> Rs]]. exists (Ok s1 []). split; [|exists s1; split; [reflexivity|exact Rs]].
      apply runs_alt_cons. exists (Ok s1 []). split; [exact H1|reflexivity].
    + destruct S1 as [t ->].
      destruct (IHes b eq_refl c (set_trk s t)) as [r2 [H2 S2]].
      exists r2. split.
      * apply runs_alt_cons. exists (Fail t). split; [exact H1|exact H2].
      * cbn [set_trk s_rest] in S2. destruct (first_match b (s_rest s)); exact S2.
Qed.

Lemma flat_sem : forall fl e ts, flat_terms h fl e = Some ts -> forall c s,
  exists r, evals h c e s r /\ ends_after (first_match ts (s_rest s)) s r.
Proof.
  induction fl as [|fl IH]; intros e ts H c s; [discriminate|].
  assert (TERM : forall t, term_of e = Some t -> ts = [t] ->
                   exists r, evals h c e s r /\ ends_after (first_match ts (s_rest s)) s r).
  { intros t Ht ->. destruct (term_sem e t Ht c s) as [r [H1 S1]]. exists r. split; [exact H1|].
    cbn [first_match]. destruct (tmatch t (s_rest s)); exact S1. }
  destruct e; cbn [flat_terms] in H;
    try (match type of H with context [term_of ?x] => destruct (term_of x) as [t|] eqn:Et end;
         [|discriminate]; inversion H; subst ts; eapply TERM; reflexivity).
  - destruct tag as [tg|].
    + cbn [term_of] in H. discriminate.
    + destruct (lookup h n) as [r0|] eqn:L; [|discriminate].
      destruct (plain_silent r0) eqn:P; [|discriminate].
      destruct (IH (r_body r0) ts H (rule_ctx c r0) s) as [r [H1 S1]].
      exists r. split; [eapply plain_call_evals; eassumption|exact S1].
  - destruct (flat_alt_sem fl IH es ts H c s) as [r [H1 S1]].
    exists r. split; [apply alt_is_its_task; exact H1|exact S1].
Qed.

Lemma terms_of_flat : forall b ts, terms_of b = Some ts -> gather (flat_terms h 1) b = Some ts.
Proof.
  induction b as [|e b IH]; intros ts H; cbn in H.
  - inversion H; subst. reflexivity.
  - destruct (term_of e) as [t|] eqn:Et; [|discriminate].
    destruct (terms_of b) as [ts0|] eqn:Eb; [|discriminate]. inversion H; subst ts.
    cbn [gather fold_right]. fold (gather (flat_terms h 1) b). rewrite (IH ts0 eq_refl).
    assert (X : flat_terms h 1 e = Some [t]).
    { destruct e; try discriminate; cbn [flat_terms]; rewrite Et; reflexivity. }
    rewrite X. reflexivity.
Qed.

Lemma terms_sem b ts : terms_of b = Some ts -> forall c s,
  exists r, evals h c (EAlt b) s r /\ ends_after (first_match ts (s_rest s)) s r.
Proof.
  intros H c s. apply (flat_sem 2 (EAlt b) ts). cbn [flat_terms].
  apply (terms_of_flat b ts H).
Qed.

Definition hits_literal (ws : list text) (s : st) (r : res) : Prop :=
  if pref ws (s_rest s) then exists s1 ps, r = Ok s1 ps else exists t, r = Fail t.

Lemma pref_app a b rest : pref (a ++ b) rest = pref a rest || pref b rest.
Proof. unfold pref. apply existsb_app. Qed.

Lemma lits_alt_sem fl :
  (forall x ws, lits h fl x = Some ws -> forall c s, exists r, evals h c x s r /\ hits_literal ws s r) ->
  forall es ws, gather (lits h fl) es = Some ws -> forall c s,
    exists r, runs h c (TAlt es) s r /\ hits_literal ws s r.
Proof.
  intros IH. induction es as [|x es IHes]; intros ws H c s.
  - cbn in H. inversion H; subst. exists (Fail (s_trk s)).
    split; [apply runs_alt_nil; reflexivity|]. unfold hits_literal. cbn. eexists. reflexivity.
  - cbn [gather fold_right] in H. fold (gather (lits h fl) es) in H.
    destruct (lits h fl x) as [a|] eqn:Ea; [|discriminate].
    destruct (gather (lits h fl) es) as [b|] eqn:Eb; [|discriminate]. inversion H; subst ws.
    destruct (IH x a Ea c s) as [r1 [H1 S1]].
    unfold hits_literal in *. rewrite pref_app. destruct (pref a (s_rest s)); cbn [orb].
    + destruct S1 as [s1 [ps ->]]. exists (Ok s1 ps). split; [|eexists; eexists; reflexivity].
      apply runs_alt_cons. exists (Ok s1 ps). split; [exact H1|reflexivity].
    + destruct S1 as [t ->].
      destruct (IHes b eq_refl c (set_trk s t)) as [r2 [H2 S2]].
      exists r2. split; [|exact S2].
      apply runs_alt_cons. exists (Fail t). split; [exact H1|exact H2].
Qed.

Lemma lits_sem : forall fl x ws, lits h fl x = Some ws -> forall c s,
  exists r, evals h c x s r /\ hits_literal ws s r.
Proof.
  induction fl as [|fl IH]; intros x ws H c s; [discriminate|].
  destruct x; cbn [lits] in H; try discriminate.
  - inversion H; subst ws. unfold hits_literal, pref. cbn [existsb]. rewrite orb_false_r.
    destruct (strip_prefix s0 (s_rest s)) as [r0|] eqn:E; cbn [is_some].
    + eexists. split; [exists 1; cbn [run]; rewrite E; split; [reflexivity|discriminate]|].
      eexists. eexists. reflexivity.
    + eexists. split; [exists 1; cbn [run]; rewrite E; split; [reflexivity|discriminate]|].
      eexists. reflexivity.
  - destruct tag; [discriminate|].
    destruct (lookup h n) as [r0|] eqn:L; [|discriminate].
    destruct (IH (r_body r0) ws H (rule_ctx c r0) s) as [r [[f [H1 D1]] S1]].
    unfold hits_literal in *. destruct (pref ws (s_rest s)).
    + destruct S1 as [s1 [ps ->]].
      destruct (finish_rule c r0 (s_pos s) s1 ps) as [s2 ps2] eqn:FR.
      exists (Ok (pop_tag None s2) ps2). split; [|eexists; eexists; reflexivity].
      exists (S f). cbn [run]. rewrite L. cbn [push_tag]. rewrite H1, FR. split; [reflexivity|discriminate].
    + destruct S1 as [t ->]. exists (Fail t). split; [|eexists; reflexivity].
      exists (S f). cbn [run]. rewrite L. cbn [push_tag]. rewrite H1. split; [reflexivity|discriminate].
  - destruct (lits_alt_sem fl IH es ws H c s) as [r [H1 S1]].
    exists r. split; [apply alt_is_its_task; exact H1|exact S1].
  - destruct tag; [discriminate|].
    destruct (IH x ws H c s) as [r [H1 S1]]. exists r. split; [apply evals_grp_none; exact H1|exact S1].
Qed.

Definition eats_one (s : st) (r : res) : Prop :=
  match s_rest s with
  | d :: rest' => exists s1, r = Ok s1 [] /\ same_core s1 (adv s 1%N rest')
  | [] => exists t, r = Fail t
  end.

Lemma any_sem y : is_any h y = true -> forall c s, exists r, evals h c y s r /\ eats_one s r.
Proof.
  intros H.
  assert (A : forall c s, exists r, evals h c EAny s r /\ eats_one s r).
  { intros c s. unfold eats_one. destruct (s_rest s) as [|d r0] eqn:R.
    - exists (Fail (s_trk s)).
      split; [exists 1; cbn [run]; rewrite R; split; [reflexivity|discriminate]|eexists; reflexivity].
    - exists (Ok (adv s 1%N r0) []).
      split; [exists 1; cbn [run]; rewrite R; split; [reflexivity|discriminate]|].
      eexists. split; [reflexivity|apply same_core_refl]. }
  intros c s. destruct y; try discriminate; [apply A|].
  cbn [is_any] in H. destruct tag; [discriminate|].
  destruct (lookup h n) as [r0|] eqn:L; [|discriminate].
  apply andb_prop in H. destruct H as [P B].
  destruct (r_body r0) eqn:Bd; try discriminate.
  destruct (A (rule_ctx c r0) s) as [r [H1 S1]]. exists r. split; [|exact S1].
  eapply plain_call_evals; [exact L|exact P|]. rewrite Bd. exact H1.
Qed.

End Sem.

Lemma same_core_adv0 s : same_core s (adv s (N.of_nat 0) (skipn 0 (s_rest s))).
Proof. unfold same_core, st_core, adv. cbn. rewrite N.add_0_r. reflexivity. Qed.

Lemma same_core_adv_adv s s1 s2 a b r1 r2 :
  same_core s1 (adv s a r1) -> same_core s2 (adv s1 b r2) -> same_core s2 (adv s (a + b)%N r2).
Proof.
  intros H1 H2. destruct (same_core_inv _ _ H1) as [A1 [B1 [C1 D1]]].
  destruct (same_core_inv _ _ H2) as [A2 [B2 [C2 D2]]]. cbn in *.
  unfold same_core, st_core, adv. cbn. rewrite A2, B2, C2, D2, A1, C1, D1.
  rewrite N.add_assoc. reflexivity.
Qed.

Section Loop.
Variable h : grammar.
Variables (fl : nat) (x y : expr) (ws : list text).
Hypothesis Hl : lits h fl x = Some ws.
Hypothesis Hy : is_any h y = true.
Variable c : ctx.
Hypothesis Hoff : off h c.

Notation body := (EGrp (ESeq [ENot x; y]) None).

Definition eats_one_unless (s : st) (r : res) : Prop :=
  if pref ws (s_rest s) then exists t, r = Fail t
  else match s_rest s with
       | [] => exists t, r = Fail t
       | d :: rest' => exists s1, r = Ok s1 [] /\ same_core s1 (adv s 1%N rest')
       end.

Lemma skips_off s : skips h c s (Ok s []).
Proof. exists 0. split; [apply skip_off; exact Hoff|discriminate]. Qed.

Lemma body_sem s : exists r, evals h c body s r /\ eats_one_unless s r.
Proof.
  destruct (lits_sem h fl x ws Hl (neg_ctx c) s) as [x0 [H0 S0]].
  unfold hits_literal in S0. unfold eats_one_unless. destruct (pref ws (s_rest s)).
  - destruct S0 as [s1 [ps ->]].
    exists (Fnot x c s (Ok s1 ps)). split; [|cbn; eexists; reflexivity].
    apply evals_grp_none. apply seq_is_its_task. apply runs_seq_cons.
    exists (Fnot x c s (Ok s1 ps)). split; [|reflexivity].
    apply evals_not. exists (Ok s1 ps). split; [exact H0|reflexivity].
  - destruct S0 as [t ->].
    assert (N1 : evals h c (ENot x) s (Ok (set_trk s t) [])).
    { apply evals_not. exists (Fail t). split; [exact H0|reflexivity]. }
    destruct (any_sem h y Hy c (set_trk s t)) as [z [Hz Sz]].
    unfold eats_one in Sz. cbn [set_trk s_rest] in Sz.
    exists z. split.
    + apply evals_grp_none. apply seq_is_its_task. apply runs_seq_cons.
      exists (Ok (set_trk s t) []). split; [exact N1|].
      exists (Ok (set_trk s t) []). split; [apply skips_off|].
      exists z. split; [apply runs_seq_one; exact Hz|].
      destruct z; reflexivity.
    + destruct (s_rest s) as [|d rest']; [exact Sz|].
      destruct Sz as [s1 [-> R1]]. exists s1. split; [reflexivity|].
      eapply same_core_trans; [exact R1|]. apply same_core_adv. apply same_core_set_trk_l.
Qed.

Lemma tstar_loop : forall rest s, s_rest s = rest ->
  exists s1, runs h c (TStar body) s (Ok s1 []) /\
             same_core s1 (adv s (N.of_nat (scan ws rest)) (skipn (scan ws rest) rest)).
Proof.
  induction rest as [|d rest' IH]; intros s R.
  - destruct (body_sem s) as [r [Hr Sr]]. unfold eats_one_unless in Sr. rewrite R in Sr.
    assert (Sr' : exists t, r = Fail t) by (destruct (pref ws []); exact Sr).
    destruct Sr' as [t ->]. exists (set_trk s t). split.
    + apply runs_star. exists (Ok s []). split; [apply skips_off|].
      exists (Fail t). split; [exact Hr|reflexivity].
    + assert (Z : scan ws [] = 0) by (cbn; destruct (pref ws []); reflexivity).
      rewrite Z. rewrite <- R. eapply same_core_trans; [apply same_core_set_trk_l|apply same_core_adv0].
  - destruct (body_sem s) as [r [Hr Sr]]. unfold eats_one_unless in Sr. rewrite R in Sr.
    cbn [scan]. destruct (pref ws (d :: rest')) eqn:P.
    + destruct Sr as [t ->]. exists (set_trk s t). split.
      * apply runs_star. exists (Ok s []). split; [apply skips_off|].
        exists (Fail t). split; [exact Hr|reflexivity].
      * rewrite <- R. eapply same_core_trans; [apply same_core_set_trk_l|apply same_core_adv0].
    + destruct Sr as [s1 [-> R1]].
      assert (R1' : s_rest s1 = rest').
      { destruct (same_core_inv _ _ R1) as [_ [B _]]. exact B. }
      destruct (IH s1 R1') as [s2 [H2 R2]].
      exists s2. split.
      * apply runs_star. exists (Ok s []). split; [apply skips_off|].
        exists (Ok s1 []). split; [exact Hr|]. exists (Ok s2 []). split; [exact H2|reflexivity].
      * cbn [skipn]. replace (N.of_nat (S (scan ws rest'))) with (1 + N.of_nat (scan ws rest'))%N by lia.
        eapply same_core_adv_adv; eassumption.
Qed.

(* where implicit trivia is off, e* and the loop after its first iteration are the same thing *)
Lemma star_off e s r : evals h c (EStar e) s r <-> runs h c (TStar e) s r.
Proof.
  assert (A : forall p z, addp [] (addp p z) = addp p z) by (intros p [ | | | ]; reflexivity).
  rewrite evals_star, runs_star. split.
  - intros [u [Hx K]]. exists (Ok s []). split; [apply skips_off|]. exists u. split; [exact Hx|].
    destruct u; try exact K. destruct K as [z [Hz ->]]. exists z. split; [exact Hz|]. symmetry. apply A.
  - intros [v [Hv K]]. rewrite (skips_det h c s _ _ Hv (skips_off s)) in K. destruct K as [u [Hx K]].
    exists u. split; [exact Hx|]. destruct u; try exact K. destruct K as [z [Hz ->]]. exists z. split; [exact Hz|apply A].
Qed.

Lemma star_loop s :
  exists s1, evals h c (EStar body) s (Ok s1 []) /\
             same_core s1 (adv s (N.of_nat (scan ws (s_rest s))) (skipn (scan ws (s_rest s)) (s_rest s))).
Proof. destruct (tstar_loop (s_rest s) s eq_refl) as [s1 [H R]]. exists s1. split; [apply star_off|]; assumption. Qed.

Lemma skipuntil_evals h' s :
  evals h' c (ESkipUntil ws) s
    (Ok (adv s (N.of_nat (scan ws (s_rest s))) (skipn (scan ws (s_rest s)) (s_rest s))) []).
Proof.
  exists 1. split; [|discriminate]. cbn [run]. rewrite earliest_scan, Nat2N.id. reflexivity.
Qed.

Lemma skip_equiv h' s :
  exists r r', evals h c (EStar body) s r /\ evals h' c (ESkipUntil ws) s r' /\ req r' r.
Proof.
  destruct (star_loop s) as [s1 [H1 R1]].
  eexists. eexists. split; [exact H1|]. split; [apply skipuntil_evals|].
  split; [apply same_core_sym; exact R1|reflexivity].
Qed.

End Loop.

Lemma ends_after_req n s r r' : ends_after n s r -> ends_after n s r' -> req r' r.
Proof.
  destruct n; cbn.
  - intros [s1 [-> R1]] [s2 [-> R2]]. split; [|reflexivity].
    eapply same_core_trans; [exact R2|apply same_core_sym; exact R1].
  - intros [t ->] [t' ->]. exact I.
Qed.

Lemma squash_equiv h h' fl a b ts ts' c s :
  flat_terms h fl (EAlt a) = Some ts -> terms_of b = Some ts' -> squash_ok ts ts' = true ->
  exists r r', evals h c (EAlt a) s r /\ evals h' c (EAlt b) s r' /\ req r' r.
Proof.
  intros Hf Ht Hs.
  destruct (flat_sem h fl (EAlt a) ts Hf c s) as [r [H1 S1]].
  destruct (terms_sem h' b ts' Ht c s) as [r' [H2 S2]].
  exists r, r'. split; [exact H1|]. split; [exact H2|].
  rewrite (squash_first_match ts ts' (s_rest s) Hs) in S1. eapply ends_after_req; eassumption.
Qed.

Section Step.
Variables g g' : grammar.
Variable fl : nat.
Variable R : expr -> expr -> Prop.
Variable toff : bool.

Inductive ostep : expr -> expr -> Prop :=
| OS_leaf e : terminal e = true -> ostep e e
| OS_ref n t : defined_in g n || negb (defined_in g' n) = true -> ostep (ERef n t) (ERef n t)
| OS_inline n r e' : lookup g n = Some r -> plain_silent r = true -> R (r_body r) e' ->
    ostep (ERef n None) e'
| OS_outline e n' r' : defined_in g n' = false -> lookup g' n' = Some r' -> plain_silent r' = true ->
    R e (r_body r') -> ostep e (ERef n' None)
| OS_seq a b : Forall2 R a b -> ostep (ESeq a) (ESeq b)
| OS_alt a b : Forall2 R a b -> ostep (EAlt a) (EAlt b)
| OS_squash a b ts ts' : flat_terms g fl (EAlt a) = Some ts -> terms_of b = Some ts' ->
    squash_ok ts ts' = true -> ostep (EAlt a) (EAlt b)
| OS_opt a b : R a b -> ostep (EOpt a) (EOpt b)
| OS_star a b : R a b -> ostep (EStar a) (EStar b)
| OS_plus a b : R a b -> ostep (EPlus a) (EPlus b)
| OS_and a b : R a b -> ostep (EAnd a) (EAnd b)
| OS_not a b : R a b -> ostep (ENot a) (ENot b)
| OS_push a b : R a b -> ostep (EPush a) (EPush b)
| OS_grp a b t : R a b -> ostep (EGrp a t) (EGrp b t)
| OS_repn a b n : R a b -> ostep (ERepN a n) (ERepN b n)
| OS_repmin a b n : R a b -> ostep (ERepMin a n) (ERepMin b n)
| OS_repmax a b n : R a b -> ostep (ERepMax a n) (ERepMax b n)
| OS_repminmax a b m n : R a b -> ostep (ERepMinMax a m n) (ERepMinMax b m n)
| OS_skip x y ws : toff = true -> is_any g y = true -> lits g fl x = Some ws ->
    ostep (EStar (EGrp (ESeq [ENot x; y]) None)) (ESkipUntil ws)
| OS_plus_u a b1 b2 : (R a b1 \/ R (strip_grp a) b1) -> R (EStar a) b2 ->
    ostep (EPlus a) (ESeq [b1; b2])
| OS_repn_u a n bs : length bs = n -> Forall (R a) bs -> ostep (ERepN a n) (ESeq bs)
| OS_repmin_u a n bs b : length bs = n -> Forall (R a) bs -> R (EStar a) b ->
    ostep (ERepMin a n) (ESeq (bs ++ [b]))
| OS_repmax_u a n bs : length bs = n -> Forall (R a) bs -> ostep (ERepMax a n) (ESeq (map EOpt bs))
| OS_repminmax_u a m n bs1 bs2 : length bs1 = m -> m + length bs2 = n ->
    Forall (R a) bs1 -> Forall (R a) bs2 ->
    ostep (ERepMinMax a m n) (ESeq (bs1 ++ map EOpt bs2)).

End Step.

(* the local iterators of `ochk` *)
Lemma all2_F2 (P : expr -> expr -> bool) : forall xs ys,
  (fix all2 (xs ys : list expr) : bool :=
     match xs, ys with
     | [], [] => true
     | x :: xs', y :: ys' => P x y && all2 xs' ys'
     | _, _ => false
     end) xs ys = true <-> Forall2 (fun x y => P x y = true) xs ys.
Proof.
  induction xs as [|x xs IH]; intros [|y ys]; split; intros H;
    try discriminate; try (inversion H; fail); try constructor.
  - apply andb_prop in H. apply H.
  - apply IH. apply andb_prop in H. apply H.
  - inversion H; subst. apply andb_true_intro. split; [assumption|apply IH; assumption].
Qed.

Lemma alln_F (P : expr -> expr -> bool) x : forall ys,
  (fix alln (x : expr) (ys : list expr) : bool :=
     match ys with [] => true | y :: ys' => P x y && alln x ys' end) x ys = true <->
  Forall (fun y => P x y = true) ys.
Proof.
  induction ys as [|y ys IH]; split; intros H; try constructor.
  - apply andb_prop in H. apply H.
  - apply IH. apply andb_prop in H. apply H.
  - inversion H; subst. apply andb_true_intro. split; [assumption|apply IH; assumption].
Qed.

Lemma allopt_F (P : expr -> expr -> bool) x : forall ys,
  (fix allopt (x : expr) (ys : list expr) : bool :=
     match ys with
     | [] => true
     | EOpt y :: ys' => P x y && allopt x ys'
     | _ => false
     end) x ys = true <->
  exists bs, ys = map EOpt bs /\ Forall (fun y => P x y = true) bs.
Proof.
  induction ys as [|y ys IH]; split.
  - exists []. split; [reflexivity|constructor].
  - reflexivity.
  - intros H. destruct y; try discriminate. apply andb_prop in H. destruct H as [H1 H2].
    apply IH in H2. destruct H2 as [bs [-> F]]. exists (y :: bs). split; [reflexivity|constructor; assumption].
  - intros [[|b bs] [E F]]; [discriminate|]. injection E as -> ->. inversion F; subst.
    apply andb_true_intro. split; [assumption|]. apply IH. exists bs. split; [reflexivity|assumption].
Qed.

Section Inv.
Variables g g' : grammar.
Variable f : nat.
Variable toff : bool.
Notation R := (fun x y => ochk g g' f toff x y = true).

(* the local `inline` and `outline` of `ochk` *)
Definition inlineb (n : N) (e' : expr) : bool :=
  match lookup g n with Some r => plain_silent r && ochk g g' f toff (r_body r) e' | None => false end.

Definition outlineb (e : expr) (n' : N) : bool :=
  negb (defined_in g n') &&
  match lookup g' n' with Some r' => plain_silent r' && ochk g g' f toff e (r_body r') | None => false end.

(* The skip-until clause makes `ochk` look several constructors deep into the operand of a star before it falls
   through to the clause that applies, and the compiled match repeats the analysis of the right-hand side under
   every one of those constructors: this equation is the only place where that is gone through. *)
Lemma ochk_star_l a e' : ochk g g' (S f) toff (EStar a) e' =
  match e' with
  | EStar b => ochk g g' f toff a b
  | ESkipUntil ws =>
      match a with
      | EGrp (ESeq [ENot x; y]) None =>
          toff && is_any g y && match lits g f x with Some ws0 => texts_eqb ws0 ws | None => false end
      | _ => false
      end
  | ERef n' None => outlineb (EStar a) n'
  | _ => false
  end.
Proof.
  unfold outlineb. cbn [ochk].
  destruct a; try reflexivity. destruct a; try reflexivity.
  destruct es as [|[] [|y [|z l]]]; try reflexivity. destruct tag; reflexivity.
Qed.

Lemma ochk_inline n r e' : lookup g n = Some r -> plain_silent r = true -> R (r_body r) e' ->
  ochk g g' (S f) toff (ERef n None) e' = true.
Proof.
  intros L P H. cbn [ochk]. rewrite L, P. destruct e'; try exact H.
  rewrite H. cbn [andb]. rewrite orb_true_r. reflexivity.
Qed.

Lemma ochk_outline e n' r' : defined_in g n' = false -> lookup g' n' = Some r' ->
  plain_silent r' = true -> R e (r_body r') -> ochk g g' (S f) toff e (ERef n' None) = true.
Proof.
  intros D L P H. assert (O : outlineb e n' = true) by (unfold outlineb; rewrite D, L, P; exact H).
  destruct e; try exact O.
  - cbn [ochk]. fold (outlineb (ERef n tag) n'). rewrite O. destruct tag; apply orb_true_r.
  - rewrite ochk_star_l. exact O.
Qed.

Lemma ochk_of_ostep e e' : ostep g g' f R toff e e' -> ochk g g' (S f) toff e e' = true.
Proof.
  (* for opt, plus, and, not, push the clause of `ochk` is its call on the operands *)
  intros H. destruct H; try exact H.
  - destruct e; try discriminate; cbn [ochk];
      rewrite ?text_eqb_refl, ?ranges_eqb_refl, ?texts_eqb_refl, ?optZ_eqb_refl, ?N.eqb_refl; reflexivity.
  - cbn [ochk]. rewrite N.eqb_refl, optN_eqb_refl, H. destruct t; reflexivity.
  - eapply ochk_inline; eassumption.
  - eapply ochk_outline; eassumption.
  - cbn [ochk]. apply all2_F2. assumption.
  - cbn [ochk]. apply orb_true_intro. left. apply all2_F2. assumption.
  - cbn [ochk]. rewrite H, H0, H1. apply orb_true_r.
  - rewrite ochk_star_l. exact H.
  - cbn [ochk]. rewrite optN_eqb_refl. exact H.
  - cbn [ochk]. rewrite Nat.eqb_refl. exact H.
  - cbn [ochk]. rewrite Nat.eqb_refl. exact H.
  - cbn [ochk]. rewrite Nat.eqb_refl. exact H.
  - cbn [ochk]. rewrite !Nat.eqb_refl. exact H.
  - rewrite ochk_star_l, H, H0, H1, texts_eqb_refl. reflexivity.
  - cbn [ochk]. rewrite H0, andb_true_r. destruct H as [-> | ->]; [reflexivity|apply orb_true_r].
  - cbn [ochk]. rewrite H, Nat.eqb_refl. apply alln_F. assumption.
  - subst n. cbn [ochk]. rewrite app_length, Nat.add_1_r, Nat.eqb_refl.
    rewrite firstn_app, Nat.sub_diag, firstn_all, app_nil_r.
    rewrite skipn_app, Nat.sub_diag, skipn_all. cbn [skipn app andb].
    rewrite H1, andb_true_r. apply alln_F. assumption.
  - subst n. cbn [ochk]. rewrite map_length, Nat.eqb_refl. apply allopt_F. eexists. split; [reflexivity|assumption].
  - subst m n. cbn [ochk]. rewrite app_length, map_length, Nat.eqb_refl, andb_true_r.
    rewrite firstn_app, Nat.sub_diag, firstn_all, app_nil_r.
    rewrite skipn_app, Nat.sub_diag, skipn_all. cbn [skipn app].
    rewrite (proj2 (Nat.leb_le _ _) (Nat.le_add_r _ _)). cbn [andb].
    apply andb_true_intro. split; [apply alln_F; assumption|].
    apply allopt_F. eexists. split; [reflexivity|assumption].
Qed.

Lemma inline_inv n e' : inlineb n e' = true -> ostep g g' f R toff (ERef n None) e'.
Proof.
  unfold inlineb. destruct (lookup g n) as [r|] eqn:L; [|discriminate]. intros H. apply andb_prop in H.
  eapply OS_inline; [exact L|apply H|apply H].
Qed.

Lemma outline_inv e n' : outlineb e n' = true -> ostep g g' f R toff e (ERef n' None).
Proof.
  intros H. apply andb_prop in H. destruct H as [D H]. apply negb_true_iff in D.
  destruct (lookup g' n') as [r'|] eqn:L; [|discriminate]. apply andb_prop in H.
  eapply OS_outline; [exact D|exact L|apply H|apply H].
Qed.

Ltac bools :=
  repeat match goal with
  | H : _ && _ = true |- _ => apply andb_prop in H; destruct H
  end;
  repeat match goal with
  | H : text_eqb _ _ = true |- _ => apply text_eqb_eq in H
  | H : texts_eqb _ _ = true |- _ => apply texts_eqb_eq in H
  | H : ranges_eqb _ _ = true |- _ => apply ranges_eqb_eq in H
  | H : optN_eqb _ _ = true |- _ => apply optN_eqb_eq in H
  | H : optZ_eqb _ _ = true |- _ => apply optZ_eqb_eq in H
  | H : N.eqb _ _ = true |- _ => apply N.eqb_eq in H
  | H : Nat.eqb _ _ = true |- _ => apply Nat.eqb_eq in H
  end; subst.

Lemma ref_same_inv n t n0 t0 :
  N.eqb n n0 && optN_eqb t t0 && (defined_in g n || negb (defined_in g' n)) = true ->
  ostep g g' f R toff (ERef n t) (ERef n0 t0).
Proof.
  intros H. apply andb_prop in H. destruct H as [H D]. apply andb_prop in H. destruct H as [H1 H2].
  apply N.eqb_eq in H1. apply optN_eqb_eq in H2. subst. apply OS_ref. exact D.
Qed.

(* the right-hand side is a reference and the left-hand side has no clause of its own for it: it is outlined *)
Ltac outl H :=
  match type of H with
  | match ?t with _ => _ end = true => destruct t; [discriminate H|apply outline_inv; exact H]
  end.

(* a reference on the left: the same reference, inlined, or the right-hand side outlined *)
Lemma ochk_inv_ref n tag e' : ochk g g' (S f) toff (ERef n tag) e' = true -> ostep g g' f R toff (ERef n tag) e'.
Proof.
  intros H. destruct tag as [t|]; cbn [ochk] in H; destruct e'; try discriminate H; try (apply inline_inv; exact H).
  - rewrite orb_false_r in H. apply orb_prop in H. destruct H as [H|H]; [apply ref_same_inv; exact H|outl H].
  - apply orb_prop in H. destruct H as [H|H]; [|outl H].
    apply orb_prop in H. destruct H as [H|H]; [apply ref_same_inv|apply inline_inv]; exact H.
Qed.

Lemma ochk_inv_star a e' : ochk g g' (S f) toff (EStar a) e' = true -> ostep g g' f R toff (EStar a) e'.
Proof.
  intros H. rewrite ochk_star_l in H. destruct e'; try discriminate H.
  - destruct tag; [discriminate H|apply outline_inv; exact H].
  - apply OS_star. exact H.
  - destruct a; try discriminate H. destruct a; try discriminate H.
    destruct es as [|[] [|y [|z l]]]; try discriminate H. destruct tag; [discriminate H|].
    apply andb_prop in H. destruct H as [H H3]. apply andb_prop in H. destruct H as [H1 H2].
    destruct (lits g f e) as [ws0|] eqn:L; [|discriminate]. apply texts_eqb_eq in H3. subst ws0.
    apply OS_skip; assumption.
Qed.

Lemma ochk_inv e e' : ochk g g' (S f) toff e e' = true -> ostep g g' f R toff e e'.
Proof.
  intros H. destruct e; try (apply ochk_inv_ref; exact H); try (apply ochk_inv_star; exact H).
  all: cbn [ochk] in H; destruct e'; try discriminate H; try outl H.
  all: bools; try (apply OS_leaf; reflexivity).
  (* the clauses that are the call on the operands, the decorations being equal *)
  all: try (constructor; assumption).
  - apply OS_seq, all2_F2. exact H.
  - apply orb_prop in H. destruct H as [H|H]; [apply OS_alt, all2_F2; exact H|].
    destruct (flat_terms g f (EAlt es)) as [ts|] eqn:E1; [|discriminate].
    destruct (terms_of es0) as [ts'|] eqn:E2; [|discriminate].
    eapply OS_squash; eassumption.
  - destruct es as [|b1 [|b2 [|b3 es]]]; try discriminate. bools.
    apply orb_prop in H. apply OS_plus_u; assumption.
  - apply OS_repn_u; [reflexivity|apply alln_F; assumption].
  - destruct (skipn n es) as [|b [|b' l]] eqn:K; try discriminate.
    rewrite <- (firstn_skipn n es), K.
    apply OS_repmin_u; [rewrite firstn_length; lia|apply alln_F; assumption|assumption].
  - apply allopt_F in H0. destruct H0 as [bs [-> F]].
    apply OS_repmax_u; [symmetry; apply map_length|assumption].
  - apply allopt_F in H0. destruct H0 as [bs2 [K F2]]. apply Nat.leb_le in H.
    replace (ESeq es) with (ESeq (firstn m es ++ map EOpt bs2)) by (rewrite <- K, firstn_skipn; reflexivity).
    apply OS_repminmax_u; [rewrite firstn_length; lia| |apply alln_F; assumption|assumption].
    rewrite <- (map_length EOpt bs2), <- K, skipn_length. lia.
Qed.
End Inv.

Lemma ostep_mono g g' fl fl' (R R' : expr -> expr -> Prop) toff e e' :
  (forall x y, R x y -> R' x y) ->
  (forall x ws, lits g fl x = Some ws -> lits g fl' x = Some ws) ->
  (forall x ts, flat_terms g fl x = Some ts -> flat_terms g fl' x = Some ts) ->
  ostep g g' fl R toff e e' -> ostep g g' fl' R' toff e e'.
Proof.
  intros HR HL HF H. destruct H;
    try (econstructor; eauto using Forall2_impl', Forall_impl; fail).
  apply OS_plus_u; [destruct H; auto|auto].
Qed.

Lemma ochk_ref_refl g g' fo toff n : defined_in g n = true ->
  ochk g g' (S fo) toff (ERef n None) (ERef n None) = true.
Proof. intros D. cbn [ochk]. rewrite N.eqb_refl, D. reflexivity. Qed.

Lemma ochk_star_ref g g' fo toff n : defined_in g n = true ->
  ochk g g' (S (S fo)) toff (EStar (ERef n None)) (EStar (ERef n None)) = true.
Proof. intros D. apply ochk_of_ostep, OS_star, ochk_ref_refl. exact D. Qed.

(* the checker relates the implicit-trivia expression to itself; 5 is the depth of the largest one,
   ESeq [EStar (ERef WS); EStar (ESeq [ERef CM; EStar (ERef WS)])] *)
Lemma skip_expr_ochk g g' e : skip_expr g = Some e -> ochk g g' 5 false e e = true.
Proof.
  unfold skip_expr, has_ws, has_cm. intros H.
  destruct (lookup g WS_ID) eqn:W, (lookup g CM_ID) eqn:C; inversion H; subst e; clear H.
  - assert (DW : defined_in g WS_ID = true) by (unfold defined_in; rewrite W; reflexivity).
    assert (DC : defined_in g CM_ID = true) by (unfold defined_in; rewrite C; reflexivity).
    apply ochk_of_ostep, OS_seq, Forall2_two; [apply ochk_star_ref; exact DW|].
    apply ochk_of_ostep, OS_star, ochk_of_ostep, OS_seq, Forall2_two;
      [apply ochk_ref_refl; exact DC|apply ochk_star_ref; exact DW].
  - apply ochk_star_ref. unfold defined_in. rewrite W. reflexivity.
  - apply ochk_star_ref. unfold defined_in. rewrite C. reflexivity.
Qed.

Section Gram.
Variables g g' : grammar.
Variable fuel : nat.
Hypothesis HG : ochk_grammar g g' fuel = true.

Lemma ochk_grammar_inv :
  forallb (fun r' => N.eqb (r_name r') SKIP_ID
                     || (negb (defined_in g (r_name r')) && plain_silent r')
                     || ochk_rule g g' fuel r') g' = true /\
  forallb (fun r => defined_in g' (r_name r)) g = true /\
  defined_in g SKIP_ID = false.
Proof.
  unfold ochk_grammar in HG. apply andb_prop in HG. destruct HG as [H H3].
  apply andb_prop in H. destruct H as [H1 H2]. apply negb_true_iff in H3.
  repeat split; assumption.
Qed.

Lemma rule_of_g' n r' : lookup g' n = Some r' -> defined_in g n = true ->
  exists r, lookup g n = Some r /\ r_silent r = r_silent r' /\ r_kind r = r_kind r' /\
            ochk g g' fuel (trivia_off g r) (r_body r) (r_body r') = true.
Proof.
  intros L D. destruct ochk_grammar_inv as [H1 [_ H3]].
  assert (I := lookup_In _ _ _ L). assert (Nm := lookup_name _ _ _ L).
  rewrite forallb_forall in H1. specialize (H1 r' I). rewrite Nm in H1.
  apply orb_prop in H1. destruct H1 as [H1|H1]; [apply orb_prop in H1; destruct H1 as [H1|H1]|].
  - apply N.eqb_eq in H1. subst n. congruence.
  - rewrite D in H1. discriminate.
  - unfold ochk_rule in H1. rewrite Nm in H1. destruct (lookup g n) as [r|] eqn:Lg; [|discriminate].
    apply andb_prop in H1. destruct H1 as [H1 Hc]. apply andb_prop in H1. destruct H1 as [Hs Hk].
    apply eqb_prop in Hs. apply kind_eqb_eq in Hk. exists r. repeat split; assumption.
Qed.

Lemma g'_defines n r : lookup g n = Some r -> exists r', lookup g' n = Some r'.
Proof.
  intros L. destruct ochk_grammar_inv as [_ [H2 _]].
  assert (I := lookup_In _ _ _ L). assert (Nm := lookup_name _ _ _ L).
  rewrite forallb_forall in H2. specialize (H2 r I). rewrite Nm in H2.
  unfold defined_in in H2. destruct (lookup g' n) as [r'|]; [exists r'; reflexivity|discriminate].
Qed.

Lemma rule_of_g n r : lookup g n = Some r ->
  exists r', lookup g' n = Some r' /\ r_silent r = r_silent r' /\ r_kind r = r_kind r' /\
             ochk g g' fuel (trivia_off g r) (r_body r) (r_body r') = true.
Proof.
  intros L. destruct (g'_defines n r L) as [r' L'].
  assert (D : defined_in g n = true) by (unfold defined_in; rewrite L; reflexivity).
  destruct (rule_of_g' n r' L' D) as [r0 [L0 [A [B C]]]].
  assert (r0 = r) by congruence. subst r0. exists r'. repeat split; assumption.
Qed.

Lemma trivia_defined n : is_trivia_name n = true -> defined_in g n = defined_in g' n.
Proof.
  intros T. unfold defined_in at 1. destruct (lookup g n) as [r|] eqn:L.
  - destruct (g'_defines n r L) as [r' L']. unfold defined_in. rewrite L'. reflexivity.
  - unfold defined_in. destruct (lookup g' n) as [r'|] eqn:L'; [|reflexivity]. exfalso.
    destruct ochk_grammar_inv as [H1 [_ H3]].
    assert (I := lookup_In _ _ _ L'). assert (Nm := lookup_name _ _ _ L').
    rewrite forallb_forall in H1. specialize (H1 r' I). rewrite Nm in H1.
    apply orb_prop in H1. destruct H1 as [H1|H1]; [apply orb_prop in H1; destruct H1 as [H1|H1]|].
    + apply N.eqb_eq in H1. subst n. discriminate.
    + apply andb_prop in H1. destruct H1 as [_ P].
      destruct (plain_silent_inv r' P) as [_ [_ X]]. rewrite Nm in X. congruence.
    + unfold ochk_rule in H1. rewrite Nm, L in H1. discriminate.
Qed.

Lemma skip_expr_same : skip_expr g = skip_expr g'.
Proof.
  assert (W := trivia_defined WS_ID eq_refl). assert (C := trivia_defined CM_ID eq_refl).
  unfold defined_in in W, C. unfold skip_expr, has_ws, has_cm.
  destruct (lookup g WS_ID), (lookup g' WS_ID), (lookup g CM_ID), (lookup g' CM_ID);
    try discriminate; reflexivity.
Qed.

Lemma trivia_off_atom r c : trivia_off g r = true ->
  body_atom c r <> NonAtomic \/ skip_expr g = None.
Proof.
  unfold trivia_off. intros H. apply orb_prop in H. destruct H as [H|H]; [apply orb_prop in H; destruct H as [H|H]|].
  - left. unfold body_atom. destruct (r_kind r); try discriminate.
  - left. unfold body_atom. rewrite H. destruct (r_kind r); discriminate.
  - right. unfold no_trivia_rules in H. unfold skip_expr, has_ws, has_cm.
    destruct (lookup g WS_ID); [discriminate|]. destruct (lookup g CM_ID); [discriminate|reflexivity].
Qed.

Lemma okc_rule_g r c : okc g (trivia_off g r) (rule_ctx c r).
Proof.
  intros T. unfold off. cbn [rule_ctx c_atom]. apply trivia_off_atom. exact T.
Qed.

Lemma okc_rule_g' r r' c : r_kind r = r_kind r' -> r_name r = r_name r' ->
  okc g' (trivia_off g r) (rule_ctx c r').
Proof.
  intros K Nm T. unfold off. cbn [rule_ctx c_atom]. rewrite <- skip_expr_same.
  replace (body_atom c r') with (body_atom c r); [apply trivia_off_atom; exact T|].
  unfold body_atom. rewrite K, Nm. reflexivity.
Qed.

End Gram.

(* congruences at the fuel of the operand, without the step in fuel *)
Lemma star_sim' ga gb f toff e e' : trivia_sim ga gb (crel ga toff) f -> esim ga gb f toff e e' ->
  esim ga gb f toff (EStar e) (EStar e').
Proof.
  intros SK. apply task_sim_keep. intros m L. apply sim_star. apply (trivia_sim_le ga gb _ f); [lia|exact SK].
Qed.

Lemma opt_sim' ga gb f toff e e' : esim ga gb f toff e e' -> esim ga gb f toff (EOpt e) (EOpt e').
Proof. apply task_sim_keep. intros m _. apply sim_opt. Qed.

Lemma grp_l_sim' ga gb f toff x e' : esim ga gb f toff x e' -> esim ga gb f toff (EGrp x None) e'.
Proof. apply task_sim_keep. intros m _. apply grp_l_sim. Qed.

Lemma strip_grp_cases a : strip_grp a = a \/ exists x, a = EGrp x None /\ strip_grp a = x.
Proof.
  destruct a; try (left; reflexivity). destruct tag; [left; reflexivity|].
  right. exists a. split; reflexivity.
Qed.

Section Main.
Variables g g' : grammar.
Variable fuel : nat.
Hypothesis HG : ochk_grammar g g' fuel = true.

Definition both (f : nat) (toff : bool) (e e' : expr) : Prop :=
  esim g g' f toff e e' /\ esim g' g f toff e' e.

Definition sound_at (f : nat) : Prop :=
  forall fo toff e e', ochk g g' fo toff e e' = true -> both f toff e e'.

Lemma trivia_sound_at f toff : sound_at f -> trivia_sim g g' (crel g toff) f /\ trivia_sim g' g (crel g' toff) f.
Proof.
  intros H. assert (Hsk := skip_expr_same g g' fuel HG). split.
  - apply (sksim_of g g' Hsk). intros e E. exact (proj1 (H 5 false e e (skip_expr_ochk g g' e E))).
  - apply (sksim_of g' g (eq_sym Hsk)). intros e E. rewrite <- Hsk in E.
    exact (proj2 (H 5 false e e (skip_expr_ochk g g' e E))).
Qed.

Lemma off_g'_g c : off g' c -> off g c.
Proof. unfold off. rewrite (skip_expr_same g g' fuel HG). intros H; exact H. Qed.

(* `Hat` gives the operands at the simulation fuel f, whatever the checker's fuel: enough for every clause in which
   both sides spend a unit of fuel.  Where a call is inlined or outlined, the side that has the body steps while the
   side that has the call does not (`call_r_sim`), and the operands are needed at S f: `HS` has them, at the
   checker's smaller fuel. *)
Section Case.
Variable f : nat.
Variable fo : nat.
Variable toff : bool.
Hypothesis Hat : sound_at f.
Notation R := (fun x y => ochk g g' fo toff x y = true).
Hypothesis HS : forall x y, ochk g g' fo toff x y = true -> both (S f) toff x y.

Let HF : forall x y, ochk g g' fo toff x y = true -> both f toff x y.
Proof. intros x y H. exact (Hat fo toff x y H). Qed.

Let SK : trivia_sim g g' (crel g toff) f := proj1 (trivia_sound_at f toff Hat).
Let SK' : trivia_sim g' g (crel g' toff) f := proj2 (trivia_sound_at f toff Hat).

(* a construct that is simulated whenever its operand is, between any two grammars *)
Lemma both_cong (K : expr -> expr) a b :
  (forall ga gb e e', esim ga gb f toff e e' -> esim ga gb (S f) toff (K e) (K e')) ->
  R a b -> both (S f) toff (K a) (K b).
Proof. intros H Hab. destruct (HF a b Hab) as [A B]. split; apply H; assumption. Qed.

Lemma both_opt a b : both f toff a b -> both f toff (EOpt a) (EOpt b).
Proof. intros [A B]. split; apply opt_sim'; assumption. Qed.

Lemma both_star a b : both f toff a b -> both f toff (EStar a) (EStar b).
Proof. intros [A B]. split; apply star_sim'; assumption. Qed.

(* an expression that runs as a sequence (a sequence, or a repetition that stands for its unrolled form) *)
Lemma both_as_seq e e' es es' :
  (forall h f c s, run h (S f) c (TEval e) s = run h f c (TSeq es) s) ->
  (forall h f c s, run h (S f) c (TEval e') s = run h f c (TSeq es') s) ->
  Forall2 (both f toff) es es' -> both (S f) toff e e'.
Proof.
  intros E E' H. split.
  - apply (runs_as_seq_sim g g' f toff e e' es es' (E g) (E' g') SK).
    revert H. apply Forall2_impl'. intros x y B. apply B.
  - apply (runs_as_seq_sim g' g f toff e' e es' es (E' g') (E g) SK').
    apply Forall2_flip'. revert H. apply Forall2_impl'. intros x y B. apply B.
Qed.

Lemma both_total e e' :
  (forall c s, okc g toff c -> exists r r', evals g c e s r /\ evals g' c e' s r' /\ req r' r) ->
  both (S f) toff e e'.
Proof.
  intros H. split; apply total_sim; intros c s Oc.
  - apply H. exact Oc.
  - destruct (H c s) as [r [r' [A [B C]]]].
    + intros T. apply off_g'_g. exact (Oc T).
    + exists r', r. split; [exact B|split; [exact A|apply req_sym; exact C]].
Qed.

Lemma F2_both a b : Forall2 R a b -> Forall2 (both f toff) a b.
Proof. apply Forall2_impl'. exact HF. Qed.

Lemma F_both a bs : Forall (R a) bs -> Forall (both f toff a) bs.
Proof. apply Forall_impl. exact (HF a). Qed.

Lemma F_both_opt a bs : Forall (R a) bs -> Forall2 (both f toff) (repeat (EOpt a) (length bs)) (map EOpt bs).
Proof. intros H. induction H; cbn; constructor; [apply both_opt, HF|]; assumption. Qed.

Lemma case_ref n t : defined_in g n || negb (defined_in g' n) = true ->
  both (S f) toff (ERef n t) (ERef n t).
Proof.
  intros H. destruct (lookup g n) as [r|] eqn:L.
  - destruct (rule_of_g g g' fuel HG n r L) as [r' [L' [Es [Ek Hc]]]].
    assert (B := Hat fuel (trivia_off g r) (r_body r) (r_body r') Hc).
    assert (Nm : r_name r = r_name r').
    { rewrite (lookup_name _ _ _ L), (lookup_name _ _ _ L'). reflexivity. }
    split.
    + apply (ref_sim g g' f toff (trivia_off g r) n t r r' L L' Es Ek); [|exact (proj1 B)].
      intros c. apply okc_rule_g.
    + apply (ref_sim g' g f toff (trivia_off g r) n t r' r L' L (eq_sym Es) (eq_sym Ek)); [|exact (proj2 B)].
      intros c. apply (okc_rule_g' g g' fuel HG r r' c Ek Nm).
  - assert (D : defined_in g n = false) by (unfold defined_in; rewrite L; reflexivity).
    rewrite D in H. cbn [orb] in H. apply negb_true_iff in H.
    assert (L' : lookup g' n = None).
    { unfold defined_in in H. destruct (lookup g' n); [discriminate|reflexivity]. }
    split; apply ref_undef_sim; assumption.
Qed.

Lemma ostep_both e e' : ostep g g' fo R toff e e' -> both (S f) toff e e'.
Proof.
  intros H. destruct H.
  - split; apply leaf_sim; assumption.
  - apply case_ref. assumption.
  - (* inline *) split.
    + eapply call_l_sim; [eassumption|assumption|]. exact (proj1 (HF _ _ H1)).
    + eapply call_r_sim; [eassumption|assumption|]. exact (proj2 (HS _ _ H1)).
  - (* outline *) split.
    + eapply call_r_sim; [eassumption|assumption|]. exact (proj1 (HS _ _ H2)).
    + eapply call_l_sim; [eassumption|assumption|]. exact (proj2 (HF _ _ H2)).
  - (* seq *) apply (both_as_seq _ _ a b); try reflexivity. apply F2_both. assumption.
  - (* alt *) apply F2_both in H. split; apply choice_sim.
    + revert H. apply Forall2_impl'. intros x y B. apply B.
    + apply Forall2_flip'. revert H. apply Forall2_impl'. intros x y B. apply B.
  - apply both_total. intros c s _. eapply squash_equiv; eassumption.
  - apply (both_cong EOpt); [intros; apply sim_opt|]; assumption.
  - destruct (HF _ _ H) as [A B]. split; apply sim_star; assumption.
  - (* plus *) apply (both_as_seq _ _ [a; EStar a] [b; EStar b]); try reflexivity.
    apply Forall2_two; [|apply both_star]; apply HF; assumption.
  - apply (both_cong EAnd); [intros; apply sim_and|]; assumption.
  - apply (both_cong ENot); [intros ga gb x x'; apply sim_not, crel_neg|]; assumption.
  - apply (both_cong EPush); [intros; apply sim_push|]; assumption.
  - apply (both_cong (fun x => EGrp x t)); [intros; apply sim_grp|]; assumption.
  - (* repn *) apply (both_as_seq _ _ (repeat a n) (repeat b n)); try reflexivity.
    apply Forall2_repeat, HF. assumption.
  - (* repmin *) apply (both_as_seq _ _ (repeat a n ++ [EStar a]) (repeat b n ++ [EStar b])); try reflexivity.
    apply Forall2_app; [apply Forall2_repeat|apply Forall2_one, both_star]; apply HF; assumption.
  - (* repmax *) apply (both_as_seq _ _ (repeat (EOpt a) n) (repeat (EOpt b) n)); try reflexivity.
    apply Forall2_repeat, both_opt, HF. assumption.
  - (* repminmax *)
    apply (both_as_seq _ _ (repeat a m ++ repeat (EOpt a) (n - m)) (repeat b m ++ repeat (EOpt b) (n - m)));
      try reflexivity.
    apply Forall2_app; apply Forall2_repeat; [|apply both_opt]; apply HF; assumption.
  - apply both_total. intros c s Oc.
    apply (skip_equiv g fo x y ws H1 H0 c (Oc H) g' s).
  - (* plus unrolled *)
    apply (both_as_seq _ _ [a; EStar a] [b1; b2]); try reflexivity.
    apply Forall2_two; [|apply HF; assumption].
    destruct H as [H|H]; [exact (HF _ _ H)|].
    destruct (strip_grp_cases a) as [E|[x [-> E]]].
    + rewrite E in H. exact (HF _ _ H).
    + destruct (HF _ _ H) as [A B]. split; [apply grp_l_sim'; exact A|apply grp_r_sim; exact B].
  - (* repn unrolled *) subst n. apply (both_as_seq _ _ (repeat a (length bs)) bs); try reflexivity.
    apply Forall2_repeat_l, F_both. assumption.
  - (* repmin unrolled *) subst n.
    apply (both_as_seq _ _ (repeat a (length bs) ++ [EStar a]) (bs ++ [b])); try reflexivity.
    apply Forall2_app; [apply Forall2_repeat_l, F_both; assumption|].
    apply Forall2_one, HF. assumption.
  - (* repmax unrolled *) subst n.
    apply (both_as_seq _ _ (repeat (EOpt a) (length bs)) (map EOpt bs)); try reflexivity.
    apply F_both_opt. assumption.
  - (* repminmax unrolled *) subst m n.
    apply (both_as_seq _ _ (repeat a (length bs1) ++ repeat (EOpt a) (length bs1 + length bs2 - length bs1))
             (bs1 ++ map EOpt bs2)); try reflexivity.
    rewrite Nat.add_comm, Nat.add_sub.
    apply Forall2_app; [apply Forall2_repeat_l, F_both|apply F_both_opt]; assumption.
Qed.

End Case.

Lemma sound_at_all : forall f, sound_at f.
Proof.
  induction f as [|f IH].
  - intros fo toff e e' _. split; apply task_sim_0.
  - intros fo. induction fo as [|fo IHfo]; intros toff e e' H; [discriminate|].
    apply (ostep_both f fo toff IH).
    + intros x y Hxy. apply IHfo. exact Hxy.
    + apply ochk_inv. exact H.
Qed.

End Main.

(* a simulation of the start rule's call, read at the initial context and state *)
Lemma esim_parse ga gb f rule input k :
  esim ga gb f false (ERef rule None) (ERef rule None) -> parse ga f rule input k <> Fuel ->
  exists f', req (parse gb f' rule input k) (parse ga f rule input k).
Proof.
  intros B D.
  destruct (B f ctx0 ctx0 (st0 input k) (st0 input k) (le_n _) (conj (okc_false _ _) eq_refl) (same_core_refl _) D)
    as [r' [[f' [H1 D1]] Rq]].
  exists f'. unfold parse, eval. rewrite H1. exact Rq.
Qed.

Theorem ochk_sound : forall g g' fuel, ochk_grammar g g' fuel = true ->
  forall rule input k, defined_in g rule = true ->
    (forall f r, parse g f rule input k = r -> r <> Fuel -> exists f', req (parse g' f' rule input k) r) /\
    (forall f r, parse g' f rule input k = r -> r <> Fuel -> exists f', req (parse g f' rule input k) r).
Proof.
  intros g g' fuel HG rule input k D.
  assert (B : forall f, both g g' f false (ERef rule None) (ERef rule None)).
  { intros f. apply (sound_at_all g g' fuel HG f 1 false). apply ochk_ref_refl. exact D. }
  split; intros f r H Dr; subst r; apply esim_parse; [apply B|exact Dr|apply B|exact Dr].
Qed.

Print Assumptions ochk_sound.
