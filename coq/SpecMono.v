(* SpecMono.v — fuel monotonicity of the reference semantics: a result other than Fuel is
   stable under adding fuel. *)
From Coq Require Import List Lia.
Import ListNotations.
From PP Require Import Syntax Spec SpecSyn.

Section Mono.
Variable g : grammar.

Definition mono_at (f : nat) : Prop :=
  forall c t s r, run g f c t s = r -> r <> Fuel -> forall f', f <= f' -> run g f' c t s = r.

Lemma skip_mono f : mono_at f -> forall c s r,
  skip_with g (fun c' e' => run g f c' (TEval e')) c s = r -> r <> Fuel ->
  forall f', f <= f' -> skip_with g (fun c' e' => run g f' c' (TEval e')) c s = r.
Proof.
  intros IH c s r H D f' L. unfold skip_with in *.
  destruct (c_atom c); try exact H.
  destruct (skip_expr g); try exact H.
  eapply IH; eauto.
Qed.

Lemma mono_all : forall f, mono_at f.
Proof.
  induction f as [|f IH]; intros c t s r H D f' L; [cbn in H; congruence|].
  destruct f' as [|f']; [lia|]. assert (L' : f <= f') by lia.
  (* the hypotheses, read as equations between the calls at f' and at f *)
  assert (IHe : forall c t s, run g f c t s <> Fuel -> run g f' c t s = run g f c t s).
  { intros c0 t0 s0 D0. exact (IH c0 t0 s0 _ eq_refl D0 f' L'). }
  assert (IHk : forall c s, skip_with g (fun c' e' => run g f c' (TEval e')) c s <> Fuel ->
            skip_with g (fun c' e' => run g f' c' (TEval e')) c s
            = skip_with g (fun c' e' => run g f c' (TEval e')) c s).
  { intros c0 s0 D0. exact (skip_mono f IH c0 s0 _ eq_refl D0 f' L'). }
  subst r. revert D.
  destruct t as [e|es|es|e].
  - destruct e; cbn [run]; try (intros _; reflexivity); try apply IHe.
    + destruct (lookup g n); [|reflexivity].
      next_run IHe IHk R; [rewrite R by discriminate; reflexivity..|congruence].
    + (* EOpt *) next_run IHe IHk R; [rewrite R by discriminate; reflexivity..|congruence].
    + (* EStar *) next_run IHe IHk R1; [rewrite R1 by discriminate..|congruence]; try reflexivity.
      next_run IHe IHk R2; [rewrite R2 by discriminate; reflexivity..|congruence].
    + (* EAnd *) next_run IHe IHk R; [rewrite R by discriminate; reflexivity..|congruence].
    + (* ENot *) next_run IHe IHk R; [rewrite R by discriminate; reflexivity..|congruence].
    + (* EGrp *) next_run IHe IHk R; [rewrite R by discriminate; reflexivity..|congruence].
    + (* EPush *) next_run IHe IHk R; [rewrite R by discriminate; reflexivity..|congruence].
  - cbn [run]. destruct es as [|e1 es']; [reflexivity|].
    next_run IHe IHk R1; [rewrite R1 by discriminate..|congruence]; try reflexivity.
    destruct es' as [|e2 es'']; [reflexivity|].
    next_run IHe IHk R2; [rewrite R2 by discriminate..|congruence]; try reflexivity.
    next_run IHe IHk R3; [rewrite R3 by discriminate; reflexivity..|congruence].
  - cbn [run]. destruct es as [|e1 es']; [reflexivity|].
    next_run IHe IHk R1; [rewrite R1 by discriminate..|congruence]; try reflexivity.
    apply IHe.
  - cbn [run].
    next_run IHe IHk R1; [rewrite R1 by discriminate..|congruence]; try reflexivity.
    next_run IHe IHk R2; [rewrite R2 by discriminate..|congruence]; try reflexivity.
    next_run IHe IHk R3; [rewrite R3 by discriminate; reflexivity..|congruence].
Qed.

Theorem run_mono : forall f f' c t s r,
  run g f c t s = r -> r <> Fuel -> f <= f' -> run g f' c t s = r.
Proof. intros. eapply mono_all; eauto. Qed.

Theorem parse_mono : forall f f' rule input k r,
  parse g f rule input k = r -> r <> Fuel -> f <= f' -> parse g f' rule input k = r.
Proof. intros. unfold parse, eval in *. eapply run_mono; eauto. Qed.

End Mono.
