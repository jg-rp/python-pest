(* OptPassCompose.v — any sequence (any order, any repetition) of the unroll and inline built-in passes preserves every
   parse: each pass preserves the hypotheses of the pass theorems, and the equivalence of tables is transitive. *)
From Coq Require Import List ZArith Bool.
Import ListNotations.
From PP Require Import Syntax Spec SpecSyn SpecEquiv Opt OptPass OptPassProof OptPassInline.
Open Scope nat_scope.

(* two tables parse alike from every rule of the first *)
Definition geq (g g' : grammar) : Prop :=
  forall rule input k, defined_in g rule = true ->
    (forall f r, parse g f rule input k = r -> r <> Fuel -> exists f', req (parse g' f' rule input k) r) /\
    (forall f r, parse g' f rule input k = r -> r <> Fuel -> exists f', req (parse g f' rule input k) r).

Lemma geq_refl g : geq g g.
Proof. intros rule input k _. split; intros f r H D; exists f; rewrite H; apply req_refl. Qed.

Lemma geq_trans g1 g2 g3 : (forall n, defined_in g1 n = true -> defined_in g2 n = true) ->
  geq g1 g2 -> geq g2 g3 -> geq g1 g3.
Proof.
  intros Dn A B rule input k D. destruct (A rule input k D) as [A1 A2].
  destruct (B rule input k (Dn rule D)) as [B1 B2]. split.
  - intros f r H Dr. destruct (A1 f r H Dr) as [f2 R2].
    assert (N2 : parse g2 f2 rule input k <> Fuel) by (eapply req_nofuel; eassumption).
    destruct (B1 f2 _ eq_refl N2) as [f3 R3]. exists f3. eapply req_trans; eassumption.
  - intros f r H Dr. destruct (B2 f r H Dr) as [f2 R2].
    assert (N2 : parse g2 f2 rule input k <> Fuel) by (eapply req_nofuel; eassumption).
    destruct (A2 f2 _ eq_refl N2) as [f1 R1]. exists f1. eapply req_trans; eassumption.
Qed.

(* the hypotheses of the pass theorems, together *)
Definition dom (bi : N -> bool) (g : grammar) : Prop :=
  names_nodup g = true /\ defined_in g SKIP_ID = false /\ all_grammar count_ok g = true /\ builtins_plain bi g = true.

Definition same_heads (g g' : grammar) : Prop :=
  Forall2 (fun r r' => r_name r' = r_name r /\ r_silent r' = r_silent r /\ r_kind r' = r_kind r) g g'.

Lemma geq_step g g' g'' : same_heads g g' -> geq g g' -> geq g' g'' -> geq g g''.
Proof. intros Hh. apply geq_trans. intros n Dn. rewrite (heads_defined g g' Hh). exact Dn. Qed.

Lemma same_heads_plain bi g g' : same_heads g g' -> builtins_plain bi g = true -> builtins_plain bi g' = true.
Proof.
  intros H. unfold builtins_plain. induction H as [|r r' g g' [Hn [Hs Hk]] _ IH]; [reflexivity|].
  cbn [forallb]. intros B. apply andb_prop in B. destruct B as [B1 B2]. rewrite (IH B2), andb_true_r.
  unfold plain_silent in *. rewrite Hn, Hs, Hk. exact B1.
Qed.

Lemma dom_heads bi g g' : same_heads g g' -> all_grammar count_ok g' = true -> dom bi g -> dom bi g'.
Proof.
  intros H C [ND [NS [_ BP]]]. repeat split.
  - unfold names_nodup. rewrite (heads_names g g' H). exact ND.
  - rewrite (heads_defined g g' H). exact NS.
  - exact C.
  - exact (same_heads_plain bi g g' H BP).
Qed.

Lemma count_ok_node : node_pred count_ok.
Proof. intros R x y C. destruct C; reflexivity. Qed.

Lemma count_ok_unroll e : all_sub count_ok e = true -> all_sub count_ok (unroll_bu e) = true.
Proof.
  apply all_sub_map_bu; [exact count_ok_node|]. intros x _. apply all_sub_unroll1.
  intros y N. destruct y; try reflexivity; discriminate.
Qed.

Lemma count_ok_inline bi g : all_grammar count_ok g = true ->
  forall fu e e', map_td (inline_builtin1 bi g) fu e = Some e' ->
  all_sub count_ok e = true -> all_sub count_ok e' = true.
Proof.
  intros G. induction fu as [|fu IH]; intros e e' H C; [discriminate|].
  apply map_td_shape in H.
  assert (C1 : all_sub count_ok (inline_builtin1 bi g e) = true).
  { destruct (inline_builtin1_cases bi g e) as [->|[n [r [_ [_ [_ [L ->]]]]]]]; [exact C|].
    exact (all_grammar_lookup count_ok g n r G L). }
  rewrite all_sub_eq in *. apply andb_prop in C1. destruct C1 as [A1 A2].
  rewrite (count_ok_node _ _ _ H), A1. revert H A2. apply sub_ok_cong. exact IH.
Qed.

Inductive pstep (bi : N -> bool) : grammar -> grammar -> Prop :=
| PS_unroll g : pstep bi g (pass_unroll bi g)
| PS_inline g fuel g' : gdepth g <= 2 * fuel -> pass_inline_builtin bi fuel g = Some g' -> pstep bi g g'.

Inductive psteps (bi : N -> bool) : grammar -> grammar -> Prop :=
| PSS_nil g : psteps bi g g
| PSS_cons g g' g'' : pstep bi g g' -> psteps bi g' g'' -> psteps bi g g''.

Lemma unroll_heads bi g : same_heads g (pass_unroll bi g).
Proof. exact (rel_heads _ _ _ (step_bu_rel bi unroll1 g)). Qed.

Lemma unroll_count bi g : all_grammar count_ok g = true -> all_grammar count_ok (pass_unroll bi g) = true.
Proof.
  refine (all_grammar_rel count_ok _ _ _ _ (step_bu_rel bi unroll1 g)).
  intros a b [->| ->] C; [exact C|exact (count_ok_unroll a C)].
Qed.

Lemma inline_heads_count bi fuel g g' : all_grammar count_ok g = true ->
  pass_inline_builtin bi fuel g = Some g' -> same_heads g g' /\ all_grammar count_ok g' = true.
Proof.
  intros G H. apply inline_builtin_rel in H. split; [exact (rel_heads _ _ _ H)|].
  refine (all_grammar_rel count_ok _ g g' _ H G). intros a b [->|M] C; [exact C|].
  exact (count_ok_inline bi g G fuel a b M C).
Qed.

Lemma pstep_dom bi g g' : dom bi g -> pstep bi g g' -> dom bi g' /\ same_heads g g'.
Proof.
  intros D S. pose proof D as [_ [_ [C _]]]. destruct S as [g|g fuel g' GD H].
  - split; [|apply unroll_heads]. apply (dom_heads bi g); [apply unroll_heads|apply unroll_count; exact C|exact D].
  - destruct (inline_heads_count bi fuel g g' C H) as [Hh Hc]. split; [|exact Hh].
    exact (dom_heads bi g g' Hh Hc D).
Qed.

Lemma pstep_geq bi g g' : dom bi g -> pstep bi g g' -> geq g g'.
Proof.
  intros [ND [NS [C BP]]] S. destruct S as [g|g fuel g' GD H]; intros rule input k Dr.
  - exact (pass_unroll_sound bi g ND NS C rule input k Dr).
  - exact (pass_inline_builtin_sound bi fuel g g' ND NS BP GD H rule input k Dr).
Qed.

Theorem psteps_geq bi : forall g g', psteps bi g g' -> dom bi g -> geq g g'.
Proof.
  intros g g' S. induction S as [g|g g' g'' S1 _ IH]; intros D; [apply geq_refl|].
  destruct (pstep_dom bi g g' D S1) as [D' Hh].
  exact (geq_step g g' g'' Hh (pstep_geq bi g g' D S1) (IH D')).
Qed.
